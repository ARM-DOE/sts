(* C19 - configuration means what it says, also after inheritance and
   re-encoding. *)
From Coq Require Import List ZArith Bool.
From STS Require Import Model.Conf Proofs.ConfP.
Import ListNotations.
Open Scope Z_scope.

(* options omitted for a source take the value of the preceding source, given
   (non-zero) values are never overridden *)
Theorem C19_omitted_inherits : forall t s i,
  (i < length t)%nat -> (length t <= length s)%nat -> nth i t 0 = 0 ->
  nth i (copy_plain t s) 0 = nth i s 0.
Proof. intros t s i Hi Hl Hn. rewrite copy_plain_nth by auto. rewrite Hn. reflexivity. Qed.
Print Assumptions C19_omitted_inherits.

Theorem C19_explicit_kept : forall t s i,
  (i < length t)%nat -> (length t <= length s)%nat -> nth i t 0 <> 0 ->
  nth i (copy_plain t s) 0 = nth i t 0.
Proof.
  intros t s i Hi Hl Hn. rewrite copy_plain_nth by auto.
  apply Z.eqb_neq in Hn. rewrite Hn. reflexivity.
Qed.
Print Assumptions C19_explicit_kept.

(* an explicit false is kept where the option has an is-set marker:
   stat-payload, error-backoff (any explicit value, 0 included), a tag's delete *)
Theorem C19_explicit_false_stat_kept : forall d prev,
  d_stat d = T_FALSE -> c_stat (inherit (parse_src d) prev) = false.
Proof. intros d prev H. rewrite inherit_parse, H. reflexivity. Qed.
Print Assumptions C19_explicit_false_stat_kept.

Theorem C19_explicit_backoff_kept : forall d prev v,
  d_backoff d = Some v -> c_backoff (inherit (parse_src d) prev) = v.
Proof. intros d prev v H. rewrite inherit_parse, H. reflexivity. Qed.
Print Assumptions C19_explicit_backoff_kept.

Theorem C19_explicit_false_delete_kept : forall d def,
  td_delete d = T_FALSE -> tc_delete (inherit_tag (parse_tag d) def) = false.
Proof. intros d def H. rewrite inherit_tag_parse, H. reflexivity. Qed.
Print Assumptions C19_explicit_false_delete_kept.

Theorem C19_omitted_marker_options_inherit : forall d prev,
  (d_stat d = T_ABSENT -> c_stat (inherit (parse_src d) prev) = c_stat prev) /\
  (d_backoff d = None -> c_backoff (inherit (parse_src d) prev) = c_backoff prev).
Proof. intros d prev. split; intros H; rewrite inherit_parse, H; reflexivity. Qed.
Print Assumptions C19_omitted_marker_options_inherit.

(* encoding a parsed sender configuration to JSON and parsing it again yields
   the same effective configuration - provided "%f" preserves error-backoff *)
Theorem C19_reencode_fixpoint : forall (fmt6 : Z -> Z),
  (forall v, fmt6 v = v) -> forall docs, reencode fmt6 docs = effective docs.
Proof. intros fmt6 Hf docs. apply reencode_fixpoint_written. auto. Qed.
Print Assumptions C19_reencode_fixpoint.

(* each file gets the FIRST pattern tag (in list order) whose pattern matches
   its group, and the default tag's settings when none does *)
Theorem C19_first_matching_tag : forall ntags has_pattern matches name_is s k,
  tagger ntags has_pattern matches name_is s = Some k ->
  (k < ntags)%nat /\ has_pattern k = true /\ (name_is k s = true \/ matches k s = true) /\
  forall j, (j < k)%nat -> has_pattern j && (name_is j s || matches j s) = false.
Proof.
  intros ntags has_pattern matches name_is s k H.
  destruct (tagger_from_spec _ _ _ _ _ _ _ H) as (A & B & C & D).
  repeat split; auto; [Lia.lia|]. intros j Hj. apply D. Lia.lia.
Qed.
Print Assumptions C19_first_matching_tag.

(* Refuted (recorded findings): options WITHOUT a marker cannot be given their
   zero value explicitly - include-hidden: false after a true source becomes
   true; a tag priority 0 / a target boolean false inherit the predecessor's;
   and 7 decimals of error-backoff do not survive re-encoding. *)
Theorem C19_explicit_false_hidden_refuted :
  exists d prev, d_hidden d = T_FALSE /\ c_hidden (inherit (parse_src d) prev) = true.
Proof.
  exists (mksd [] T_ABSENT T_FALSE None), (mksc [] false false true 0 false).
  split; reflexivity.
Qed.
Print Assumptions C19_explicit_false_hidden_refuted.

Theorem C19_explicit_zero_refuted :
  exists t s, nth 0 t 0 = 0 /\ nth 0 (copy_plain t s) 0 <> 0.
Proof. exists [0], [5]. split; [reflexivity | discriminate]. Qed.
Print Assumptions C19_explicit_zero_refuted.

Theorem C19_reencode_backoff_refuted :
  exists (fmt6 : Z -> Z) docs, reencode fmt6 docs <> effective docs.
Proof.
  exists (fun v => v + 1), [mksd [] T_ABSENT T_ABSENT (Some 9999999)].
  vm_compute. discriminate.
Qed.
Print Assumptions C19_reencode_backoff_refuted.

(* chunk size of a source's queue (main/client.go init) after inheritance of tags
   and bin-size between the sources of one sender *)
Theorem C19_chunk_is_own_bin_or_written : forall pre s post x,
  cs_bin s <> 0 ->
  In x (nth (length pre) (chunk_table (pre ++ s :: post)) []) ->
  x = cs_bin s \/ (x <> 0 /\ In x (written_chunks (pre ++ s :: post))).
Proof.
  intros pre s post x Hb Hin. unfold chunk_table in Hin.
  destruct (chunk_row pre 0 [] s post) as (b & pt' & E & Hbin & Hpt).
  rewrite E, (Hbin Hb) in Hin. apply in_map_iff in Hin as (c & <- & Hin).
  destruct (Z.eq_dec c 0) as [->|Hne]; [left; reflexivity | right].
  rewrite queue_chunk_explicit by exact Hne. split; [exact Hne|].
  rewrite written_chunks_app, written_chunks_cons, !in_app_iff.
  destruct (cs_tags s); [apply tags_chunks_in in Hin; auto|]. destruct (Hpt c Hin) as [[]|H]; auto.
Qed.
Print Assumptions C19_chunk_is_own_bin_or_written.

Theorem C19_chunk_own_tags : forall pre s post t,
  cs_tags s = Some t ->
  exists b, nth (length pre) (chunk_table (pre ++ s :: post)) [] = map (fun c => queue_chunk c b) (tags_chunks t) /\
            (cs_bin s <> 0 -> b = cs_bin s).
Proof.
  intros pre s post t Ht. destruct (chunk_row pre 0 [] s post) as (b & pt' & E & Hbin & _).
  rewrite Ht in E. exists b. split; [exact E | exact Hbin].
Qed.
Print Assumptions C19_chunk_own_tags.

(* what a source's store ignores: its own (or inherited) ignore list, the standard
   ignores, and the patterns of ITS OWN tags whose method is not http *)
Theorem C19_store_ignores_own_lists_and_tags : forall pre s post inc ign t,
  is_lists s = Some (inc, ign) -> is_tags s = Some t ->
  nth (length pre) (ignore_table (pre ++ s :: post)) ([], []) =
  (inc, ign ++ [STD_LCK; STD_DISABLED] ++ map fst (filter snd t)).
Proof.
  intros pre s post inc ign t Hl Ht. unfold ignore_table.
  destruct (ignore_row pre [] [] [] (s :: post)) as (a & b & c & ->).
  cbn [ignore_table_from nth]. rewrite Hl, Ht. reflexivity.
Qed.
Print Assumptions C19_store_ignores_own_lists_and_tags.

Theorem C19_inherited_lists_own_tags : forall s0 s1 post inc ign t0 t1,
  is_lists s0 = Some (inc, ign) -> is_tags s0 = Some t0 ->
  is_lists s1 = None -> is_tags s1 = Some t1 ->
  nth 1 (ignore_table (s0 :: s1 :: post)) ([], []) =
  (inc, ign ++ [STD_LCK; STD_DISABLED] ++ map fst (filter snd t1)) /\
  nth 0 (ignore_table (s0 :: s1 :: post)) ([], []) =
  (inc, ign ++ [STD_LCK; STD_DISABLED] ++ map fst (filter snd t0)).
Proof.
  intros s0 s1 post inc ign t0 t1 H0 H0t H1 H1t.
  unfold ignore_table. cbn [ignore_table_from nth]. rewrite H0, H0t, H1, H1t. split; reflexivity.
Qed.
Print Assumptions C19_inherited_lists_own_tags.
