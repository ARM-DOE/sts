(* C02 - source files are released only after validated receipt. *)
From Coq Require Import List ZArith Bool.
From STS Require Import Model.Ranges Model.Queue Model.LogM Model.Stage Model.Sender Proofs.SenderP.
Import ListNotations.
Open Scope Z_scope.

(* sender: the poll loop releases a file only on a positive answer; a failed,
   unknown ("none") or exhausted answer leads to a retry, never to a release *)
Theorem C02_release_needs_positive_answer : forall code polled attempts,
  on_poll code polled attempts = ARelease -> code = POLL_WAITING \/ code = POLL_PASSED.
Proof. exact release_needs_positive_answer. Qed.
Print Assumptions C02_release_needs_positive_answer.

Theorem C02_negative_answers_never_release : forall code polled attempts,
  code = POLL_NONE \/ code = POLL_FAILED -> on_poll code polled attempts <> ARelease.
Proof. exact negative_answers_never_release. Qed.
Print Assumptions C02_negative_answers_never_release.

(* the same at restart: the recovery poll finishes a file only on a positive answer *)
Theorem C02_recovery_poll_releases_only_on_positive : forall code,
  recover_after_poll code = QFinishAndPlaceholder -> code = POLL_WAITING \/ code = POLL_PASSED.
Proof. exact recover_poll_never_releases_on_negative. Qed.
Print Assumptions C02_recovery_poll_releases_only_on_positive.

(* receiver: a positive answer is given only for a file whose cache entry is
   validated (body held in .wait), finalized or known from the receive log;
   failed, unknown and merely received files are answered failed / none *)
Theorem C02_positive_answer_state : forall s now n h sent s' code,
  status_q s now n h sent = (s', code) ->
  code = CONFIRM_PASSED \/ code = CONFIRM_WAITING ->
  (cache_state s' n = ST_VALIDATED \/ cache_state s' n = ST_FINALIZED \/ cache_state s' n = ST_LOGGED) /\
  (h = [] \/ cache_hash s' n = [] \/ cache_hash s' n = h).
Proof.
  intros s now n h sent s' code [= <- <-] Hc.
  set (s1 := build_cache s now sent) in *. set (st := cache_state s1 n) in *.
  destruct (other_version s1 n h) eqn:O; [destruct Hc; discriminate|]. split.
  - destruct (st =? ST_RECEIVED); [destruct Hc; discriminate|].
    destruct (st =? ST_FAILED); [destruct Hc; discriminate|].
    destruct (Z.eqb_spec st ST_VALIDATED); [auto|].
    destruct (Z.eqb_spec st ST_LOGGED); [auto|].
    destruct (Z.eqb_spec st ST_FINALIZED); [auto | destruct Hc; discriminate].
  - unfold other_version in O. destruct h; [auto|]. destruct (cache_hash s1 n); [auto|].
    right; right. apply QueueP.name_eqb_eq. apply negb_false_iff in O. exact O.
Qed.
Print Assumptions C02_positive_answer_state.

Theorem C02_negative_states_answered_negatively : forall s now n h sent,
  let st := cache_state (build_cache s now sent) n in
  (st = ST_FAILED -> snd (status_q s now n h sent) = CONFIRM_FAILED \/ snd (status_q s now n h sent) = CONFIRM_NONE) /\
  (st = ST_RECEIVED -> snd (status_q s now n h sent) = CONFIRM_NONE) /\
  (st = ST_UNKNOWN -> snd (status_q s now n h sent) = CONFIRM_NONE).
Proof.
  intros s now n h sent st. unfold status_q; cbn [snd]. fold st.
  destruct (other_version _ n h); repeat split; try intros ->; auto.
Qed.

(* names are used again: a poll that names the hash of the version that was sent is
   never answered on the strength of ANOTHER version held under that name (fix
   "status polls say which version") *)
Theorem C02_other_version_is_unknown : forall s now n h sent,
  h <> [] -> cache_hash (build_cache s now sent) n <> [] ->
  cache_hash (build_cache s now sent) n <> h ->
  snd (status_q s now n h sent) = CONFIRM_NONE.
Proof.
  intros s now n h sent Hh Hk Hne. unfold status_q; cbn [snd]. unfold other_version.
  destruct h; [congruence|]. destruct (cache_hash _ n) eqn:K; [congruence|].
  apply QueueP.name_eqb_false_neq in Hne. rewrite Hne. reflexivity.
Qed.
Print Assumptions C02_other_version_is_unknown.
Print Assumptions C02_negative_states_answered_negatively.

(* the queue cache: a confirmation does not carry over to another version *)
From STS Require Import Model.Cache Proofs.CacheP.

Theorem C02_confirmation_not_carried_over : forall c n size time meta hash e e',
  cget n (c_mem c) = Some e ->
  (ce_size e <> size \/ ce_time e <> time \/ (hash <> [] /\ ce_hash e <> hash)) ->
  cget n (c_mem (cadd c n size time meta hash)) = Some e' -> ce_done e' = false.
Proof.
  intros c n size time meta hash e e' G Hd. unfold cadd. cbn [c_mem]. rewrite cget_cset_same, G.
  intros [= <-]. cbn [ce_done]. destruct (c_other_version e size time hash) eqn:O; [apply andb_false_r|].
  apply c_other_version_false in O. tauto.
Qed.
Print Assumptions C02_confirmation_not_carried_over.

(* finish(): what one poll answer does to the cache entry and the source file *)
Theorem C02_finish_confirms_only_the_version_asked_about :
  forall code cached polled was_done can_delete disk,
  fo_done (finish_step code cached polled was_done can_delete disk) = true ->
  was_done = true \/
  ((code = POLL_PASSED \/ code = POLL_WAITING) /\ (polled = [] \/ cached = polled)).
Proof.
  intros code cached polled was_done can_delete disk.
  destruct (finish_step_inv code cached polled was_done can_delete disk) as [[-> _]|(Hc & Hp & _)]; tauto.
Qed.
Print Assumptions C02_finish_confirms_only_the_version_asked_about.

Theorem C02_finish_removes_only_the_confirmed_version :
  forall code cached polled was_done can_delete disk,
  fo_removed (finish_step code cached polled was_done can_delete disk) = true ->
  (code = POLL_PASSED \/ code = POLL_WAITING) /\ (polled = [] \/ cached = polled) /\
  can_delete = true /\ disk = 0.
Proof.
  intros code cached polled was_done can_delete disk.
  destruct (finish_step_inv code cached polled was_done can_delete disk) as [[_ ->]|(Hc & Hp & ->)];
    [discriminate|].
  rewrite !andb_true_iff, Z.eqb_eq. tauto.
Qed.
Print Assumptions C02_finish_removes_only_the_confirmed_version.
