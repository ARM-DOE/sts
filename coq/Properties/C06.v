(* C06 - a receiver crash at any point loses nothing and delivers nothing
   unvalidated. *)
From Coq Require Import List ZArith Bool.
From STS Require Import Model.Ranges Model.Queue Model.LogM Model.Stage Proofs.StageP.
Import ListNotations.
Open Scope Z_scope.

Section C06.
Variable H : list Z -> name.
Variable ver : name -> name.

(* Crash-closure of the integrity invariant: if the durable state found on disk
   after a process death satisfies the invariant (every held body hashes to the
   announced hash, every delivered or lock-named file is covered by a log record
   of its hash, companions carry the announced hash), then so does every state
   of every continuation - Recover, re-validation, finalisation, resumed
   reception, further crashes.  Nothing unvalidated is ever delivered. *)
Theorem C06_nothing_unvalidated_after_crash : forall img ops t body,
  Inv H ver img -> Forall (op_in_D H ver) ops ->
  In (t, body) (finals (srun H init_stage (OImage img :: ORestart 0 0 :: ops))) ->
  exists r, In r (rlog (srun H init_stage (OImage img :: ORestart 0 0 :: ops))) /\
            rec_target r = t /\ H body = l_hash r /\ l_hash r = ver (l_name r).
Proof.
  intros img ops t body Himg HD Hin.
  apply (delivered_valid_on_D H ver (OImage img :: ORestart 0 0 :: ops)); auto.
  constructor; [exact Himg|]. constructor; [exact I|]. exact HD.
Qed.

(* Recover's scan loses nothing: log untouched; validated bodies untouched except
   the one body that does not hash to the hash in its own companion (validated as
   another version of the name; removed, fix "Recover checks the held file");
   complete bodies kept, delivered files kept (or replaced by the finished move). *)
Theorem C06_recover_scan_keeps_data : forall s fin val kv s' fin' val',
  recover_one H (s, fin, val) kv = (s', fin', val') ->
  rlog s' = rlog s /\
  (waits s' = waits s \/
   exists b, alookup (fst kv) (waits s) = Some b /\ H b <> c_hash (snd kv) /\
             waits s' = aremove (fst kv) (waits s)) /\
  (forall n b, alookup n (fulls s) = Some b -> alookup n (fulls s') = Some b) /\
  (forall t b, alookup t (finals s) = Some b ->
               alookup t (finals s') = Some b \/ ahas t (flcks s) = true).
Proof using H.
  intros s fin val [n c] s' fin' val' R. unfold recover_one in R.
  destruct (alookup n (waits s)) as [b|] eqn:W; [destruct (name_eqb (H b) (c_hash c)) eqn:E|].
  - injection R as <- <- <-. auto 6.
  - pose proof (recover_rest_keeps_data (set_waits (aremove n (waits s)) s) fin val n c) as K.
    rewrite R in K. destruct K as (_ & K1 & K2 & K3 & K4). repeat split; auto.
    right. exists b. apply QueueP.name_eqb_false_neq in E. auto.
  - pose proof (recover_rest_keeps_data s fin val n c) as K. rewrite R in K.
    destruct K as (_ & K1 & K2 & K3 & K4). auto.
Qed.

(* the one window in which validated data was neither staged nor delivered
   under its name - between the two renames of fileutil.Move - is closed by
   Recover (fix c24e975) *)
Theorem C06_interrupted_move_finished : forall s fin val n c body,
  alookup n (waits s) = None -> ahas n (fulls s) = false -> alookup n (parts s) = None ->
  alookup (match c_renamed c with [] => n | r => r end) (flcks s) = Some body ->
  alookup (match c_renamed c with [] => n | r => r end)
          (finals (fst (fst (recover_one H (s, fin, val) (n, c))))) = Some body.
Proof using H.
  intros s fin val n c body W F P L. unfold recover_one, recover_rest. rewrite W, F, P, L.
  apply alookup_aset_same.
Qed.

End C06.
Print Assumptions C06_nothing_unvalidated_after_crash.
Print Assumptions C06_recover_scan_keeps_data.
Print Assumptions C06_interrupted_move_finished.
