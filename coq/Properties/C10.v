(* C10 - files leave the queue in configured order with a consistent
   predecessor chain. *)
From Coq Require Import List ZArith Bool.
From STS Require Import Model.Ranges Model.Chunk Model.Queue Proofs.QueueP.
Import ListNotations.
Open Scope Z_scope.

(* The pending files of every group stay sorted in the tag's order through
   every Push (incl. files older than ones already emitted, equal timestamps,
   names pushed again) and Pop. *)
Theorem C10_push_keeps_order : forall g f, group_sorted g -> group_sorted (group_push g f).
Proof.
  intros g f. unfold group_sorted. intros Hs. destruct (group_push_files g f) as [Ef [Et _]].
  rewrite Ef, Et. intros Ho. apply insert_file_sorted.
  destruct (has_name (fname f) (gfiles g)); auto. apply remove_name_sorted; auto.
Qed.
Print Assumptions C10_push_keeps_order.

Theorem C10_pop_keeps_order : forall g now g' o,
  group_sorted g -> group_pop g now = (g', o) -> group_sorted g'.
Proof.
  intros g now g' o Hs H. apply skip_sorted in Hs. apply group_pop_inv in H.
  destruct o as [out|]; [|subst; exact Hs].
  destruct H as (f & rest & off & len & f' & Ef & _ & A & _ & ->).
  apply allocate_keys in A as [Kn Kt]. revert Hs. unfold group_sorted. rewrite skip_tag, Ef.
  destruct (is_alloc f'); cbn [gtag gfiles]; intros Hs Ho.
  - apply (files_sorted_app_r _ [f]), Hs, Ho.
  - rewrite (files_sorted_keys _ f) by assumption. auto.
Qed.
Print Assumptions C10_pop_keeps_order.

(* Whatever chunk a group emits belongs to its pending file that comes first
   in the configured order (oldest / newest / alphabetical) ... *)
Theorem C10_emits_least_pending : forall g now g' out,
  group_sorted g -> ordered (torder (gtag g)) ->
  group_pop g now = (g', Some out) ->
  exists f, In f (gfiles g) /\ fname f = pname out /\ is_alloc f = false /\
            forall y, In y (gfiles g) -> is_alloc y = false -> le_order (torder (gtag g)) f y = true.
Proof.
  intros g now g' out Hs Ho H.
  destruct (group_pop_emits _ _ _ _ H) as (sk & f & rest & E & Hsk & Af & En & _).
  apply Hs in Ho. rewrite E in Ho. apply files_sorted_app_r, files_sorted_cons in Ho as [Hx _].
  rewrite Forall_forall in Hx, Hsk.
  exists f. rewrite E. split; [apply in_elt|]. do 2 (split; [auto|]).
  intros y Hy Ay. apply in_app_or in Hy as [Hy|[<-|Hy]]; [| |auto].
  - rewrite (Hsk y Hy) in Ay. discriminate.
  - unfold le_order. rewrite after_b_irrefl. reflexivity.
Qed.
Print Assumptions C10_emits_least_pending.

(* ... and for unordered tags to the first pending file in order of arrival. *)
Theorem C10_emits_first_arrived : forall g now g' out,
  group_pop g now = (g', Some out) ->
  exists pre f post, gfiles g = pre ++ f :: post /\ fname f = pname out /\ is_alloc f = false /\
                     Forall (fun y => is_alloc y = true) pre.
Proof.
  intros g now g' out H.
  destruct (group_pop_emits _ _ _ _ H) as (sk & f & rest & E & Hsk & Af & En & _).
  exists sk, f, rest. auto.
Qed.
Print Assumptions C10_emits_first_arrived.

(* The announced predecessor, exactly: none for unordered tags; a resumed file
   keeps its own; otherwise the file of the group completed (or skipped as
   already sent) most recently; never the file itself. *)
Theorem C10_predecessor_exact : forall g now g' out,
  kept_exact g -> group_pop g now = (g', Some out) ->
  kept_exact g' /\
  exists skipped f rest,
    gfiles g = skipped ++ f :: rest /\ fname f = pname out /\
    Forall (fun x => is_alloc x = true) skipped /\ is_alloc f = false /\
    pprev out =
      guard_self
        (if torder (gtag g) =? ONONE then []
         else if frec f then fprev f
         else hd [] (rev (map fname skipped) ++ gdone g))
        (fname f) /\
    (gdone g' = rev (map fname skipped) ++ gdone g \/
     gdone g' = fname f :: rev (map fname skipped) ++ gdone g).
Proof.
  intros g now g' out HK H. split; [exact (group_pop_kept_exact _ _ _ _ HK H)|].
  apply skip_kept_exact, kept_exact_hd in HK.
  apply group_pop_inv in H as (f & rest & off & len & f' & Ef & Af & _ & -> & ->).
  destruct (skip_spec g) as (sk & E & Hsk & Ed & _).
  exists sk, f, rest. rewrite E, Ef, <- Ed, <- HK. do 5 (split; [auto|]).
  destruct (is_alloc f'); auto.
Qed.
Print Assumptions C10_predecessor_exact.

Theorem C10_never_names_itself : forall g now g' out,
  kept_exact g -> group_pop g now = (g', Some out) ->
  pprev out = [] \/ pprev out <> pname out.
Proof.
  intros g now g' out _ H.
  destruct (group_pop_emits _ _ _ _ H) as (_ & f & _ & _ & _ & _ & -> & ->).
  apply guard_self_not_self.
Qed.
Print Assumptions C10_never_names_itself.

Theorem C10_none_for_unordered : forall g now g' out,
  kept_exact g -> torder (gtag g) = ONONE -> group_pop g now = (g', Some out) -> pprev out = [].
Proof.
  intros g now g' out _ Ho H.
  destruct (group_pop_emits _ _ _ _ H) as (_ & f & _ & _ & _ & _ & _ & ->).
  rewrite Ho. apply guard_self_nil.
Qed.
Print Assumptions C10_none_for_unordered.

Theorem C10_none_for_first : forall g now g' out,
  kept_exact g -> gdone g = [] -> group_pop g now = (g', Some out) ->
  (forall x, In x (gfiles g) -> is_alloc x = false) ->
  (forall x, In x (gfiles g) -> frec x = false) ->
  pprev out = [].
Proof.
  intros g now g' out HK Hd H Hna Hnr.
  destruct (C10_predecessor_exact _ _ _ _ HK H) as (_ & sk & f & rest & Ef & _ & Hsk & _ & -> & _).
  rewrite (Hnr f), Hd by (rewrite Ef; apply in_elt).
  destruct sk as [|s sk]; [destruct (_ =? _); apply guard_self_nil|].
  apply Forall_inv in Hsk. rewrite Hna in Hsk by (rewrite Ef; left; reflexivity). discriminate.
Qed.
Print Assumptions C10_none_for_first.

(* acyclicity step: a non-empty predecessor of a non-resumed file was
   completed strictly before this chunk was emitted, so "announced predecessor"
   follows completion order and cannot cycle while names are queued once *)
Theorem C10_predecessor_completed_before : forall g now g' out,
  kept_exact g -> group_pop g now = (g', Some out) ->
  forall f, In f (gfiles g) -> fname f = pname out ->
  (forall x y, In x (gfiles g) -> In y (gfiles g) -> fname x = fname y -> x = y) ->
  frec f = false -> pprev out <> [] ->
  exists skipped, Forall (fun x => is_alloc x = true /\ In x (gfiles g)) skipped /\
    In (pprev out) (rev (map fname skipped) ++ gdone g).
Proof.
  intros g now g' out HK H f Hin Hn Huniq Hr Hne.
  destruct (C10_predecessor_exact _ _ _ _ HK H) as (_ & sk & f0 & rest & Ef & En & Hsk & _ & Ep & _).
  assert (f0 = f) by (apply Huniq; [rewrite Ef; apply in_elt | auto | congruence]).
  subst f0. exists sk. split.
  - rewrite Forall_forall in *. intros x Hx. split; auto. rewrite Ef. apply in_or_app; auto.
  - rewrite Hr in *. unfold guard_self in *. destruct (name_eqb _ _); [congruence|].
    destruct (_ =? _); [congruence|].
    destruct (rev (map fname sk) ++ gdone g); simpl in *; [congruence | auto].
Qed.
Print Assumptions C10_predecessor_completed_before.

Theorem C10_resumed_keeps_predecessor : forall g now g' out,
  kept_exact g -> torder (gtag g) <> ONONE -> group_pop g now = (g', Some out) ->
  forall f, In f (gfiles g) -> fname f = pname out ->
  (forall x y, In x (gfiles g) -> In y (gfiles g) -> fname x = fname y -> x = y) ->
  frec f = true -> pprev out = guard_self (fprev f) (fname f).
Proof.
  intros g now g' out _ Ho H f Hin Hn Huniq Hr.
  destruct (group_pop_emits _ _ _ _ H) as (sk & f0 & rest & E & _ & _ & En & ->).
  assert (f0 = f) by (apply Huniq; [rewrite E; apply in_elt | auto | congruence]).
  subst f0. rewrite Hr. apply Z.eqb_neq in Ho. rewrite Ho. reflexivity.
Qed.
Print Assumptions C10_resumed_keeps_predecessor.

(* the hypothesis kept_exact holds in every state of every history whose
   pushes are benign (no push replaces the ONLY pending file of a group that
   has already completed one) *)
Theorem C10_chain_invariant_over_histories : forall ops outs q',
  benign_history [] ops -> qrun [] ops = (q', outs) -> Forall kept_exact q'.
Proof. intros ops outs q' Hb H. exact (qrun_kept_exact ops [] q' outs (Forall_nil _) Hb H). Qed.
Print Assumptions C10_chain_invariant_over_histories.

(* ... and is refuted without it: the recorded finding *)
Theorem C10_repush_loses_chain_refuted :
  exists (t : tag) q0 ops outs q',
    q0 = [] /\ qrun q0 ops = (q', outs) /\
    exists o1 o2, outs = [None; Some o1; None; None; Some o2] /\
      torder t = OFIFO /\ pname o1 <> pname o2 /\ pprev o2 = [].
Proof.
  set (t := mktag 0 OFIFO 100 0).
  set (A := mkqf [97] 1 5 0 false [] [] 0 5).
  set (B := mkqf [98] 2 5 0 false [] [] 0 5).
  exists t, [], [QPush [(A, [103], Some t)]; QPop 10; QPush [(B, [103], Some t)];
                QPush [(B, [103], Some t)]; QPop 10].
  eexists. eexists. split; [reflexivity|]. split; [vm_compute; reflexivity|].
  eexists. eexists. split; [reflexivity|]. split; [reflexivity|]. split; [discriminate | reflexivity].
Qed.
Print Assumptions C10_repush_loses_chain_refuted.
