(* C14 - requests cannot touch files outside the configured directories. *)
From Coq Require Import List ZArith Bool.
From STS Require Import Model.Queue Model.Auth Proofs.AuthP.
Import ListNotations.
Open Scope Z_scope.

(* Every name the routes let through (filepath.IsLocal and not the directory
   itself, after fixes 4218bba / e1a422a) resolves - by the lexical Clean+Join
   the stage uses - to a path that has the root it is joined to as a prefix:
   resolve root name = root ++ (the cleaned name).  For every root without dot
   segments and every name: parent-directory segments, repeated separators,
   dot segments, any length. *)
Theorem C14_local_name_stays_under_root : forall root a ne name,
  plain_list root -> is_local a ne name = true ->
  resolve root name = root ++ clean_rel [] name /\ has_prefix root (resolve root name) = true.
Proof.
  intros root a ne name Hroot Hl. unfold is_local in Hl. apply andb_true_iff in Hl as [_ Hl].
  assert (E : resolve root name = root ++ clean_rel [] name).
  { unfold resolve. rewrite clean_abs_app, (clean_abs_plain root) by auto.
    destruct (clean_abs_rel name [] (Forall_nil _)) as (D & Q & HD & _ & Er & Ea).
    rewrite Er in *. specialize (Ea (rev root)). simpl in *. rewrite Ea.
    destruct D as [|t D]; [apply (f_equal (fun l => l ++ Q)), rev_involutive|].
    inversion HD as [|x xs Ht _]. simpl in Hl. rewrite Ht in Hl. discriminate. }
  rewrite E. split; auto. apply has_prefix_app.
Qed.
Print Assumptions C14_local_name_stays_under_root.

(* names that would escape are refused: a clean form starting with "..",
   an absolute path, the empty string *)
Theorem C14_escaping_name_refused : forall a ne name top rest,
  clean_rel [] name = top :: rest -> is_dotdot top = true -> is_local a ne name = false.
Proof.
  intros a ne name top rest Ec Et. unfold is_local. rewrite Ec, Et. apply andb_false_r.
Qed.
Print Assumptions C14_escaping_name_refused.

Theorem C14_absolute_or_empty_refused : forall ne name,
  is_local true ne name = false /\ is_local false false name = false.
Proof. intros. unfold is_local. split; [rewrite andb_false_r; reflexivity | reflexivity]. Qed.
Print Assumptions C14_absolute_or_empty_refused.

(* names made of plain segments only - what the scanner produces and what the
   static route's sanitiser lets through - are accepted *)
Theorem C14_plain_names_accepted : forall name,
  plain_list name -> name <> [] -> is_local false true name = true.
Proof.
  intros name Hp Hne. unfold is_local. rewrite clean_rel_plain by auto.
  destruct Hp as [|s r Hs _]; [congruence|]. apply plain_not in Hs as (_ & _ & Hs). simpl. rewrite Hs. reflexivity.
Qed.
Print Assumptions C14_plain_names_accepted.
