(* C12 - strict priority between tags, round-robin among equal-priority
   groups. *)
From Coq Require Import List ZArith Bool.
From STS Require Import Model.Ranges Model.Chunk Model.Queue Proofs.QueueP.
Import ListNotations.
Open Scope Z_scope.

(* groups stay sorted by priority in every reachable state *)
Theorem C12_groups_sorted_over_histories : forall ops q' outs,
  qrun [] ops = (q', outs) -> prio_sorted q' = true.
Proof. intros ops q' outs H. exact (qrun_sorted ops [] q' outs eq_refl H). Qed.
Print Assumptions C12_groups_sorted_over_histories.

(* the queue never emits a chunk of a lower-priority group while a
   higher-priority group has a chunk ready *)
Theorem C12_strict_priority : forall q now q' out,
  prio_sorted q = true -> pop q now = (q', Some out) ->
  exists g, In g q /\ snd (group_pop g now) = Some out /\
            forall h, In h q -> group_ready h now = true -> prio h <= prio g.
Proof.
  intros q now q' out Hs H. apply pop_aux_inv in H as (pre & g & post & g' & -> & F & G & _).
  exists g. split; [apply in_elt|]. split; [rewrite G; reflexivity|].
  intros h Hh Hr. apply in_app_or in Hh as [Hh|[<-|Hh]]; [|Lia.lia|].
  - rewrite Forall_forall in F. rewrite (F h Hh) in Hr. discriminate.
  - apply prio_sorted_spec in Hs. rewrite map_app in Hs. apply psorted_app_r in Hs as [Hs _].
    rewrite Forall_forall in Hs. apply Hs, in_map, Hh.
Qed.
Print Assumptions C12_strict_priority.

(* ... and it is never idle while some group is ready *)
Theorem C12_not_idle_while_ready : forall q now,
  snd (pop_aux q now) = None <-> Forall (fun h => group_ready h now = false) q.
Proof.
  intros q now. destruct (pop_aux q now) as [q' o] eqn:P. apply pop_aux_inv in P.
  destruct o as [out|]; simpl; [|tauto]. split; [discriminate|]. intros N.
  destruct P as (pre & g & post & g' & -> & _ & G & _).
  apply Forall_app in N as [_ N]. apply Forall_inv in N.
  rewrite (group_ready_pop _ _ _ _ G) in N. discriminate.
Qed.
Print Assumptions C12_not_idle_while_ready.

(* the group served is the first ready one in list order; every group in
   front of it was passed over because it is not ready *)
Theorem C12_serves_first_ready : forall q now q' out,
  pop_aux q now = (q', Some out) ->
  exists pre g post, q = pre ++ g :: post /\
    Forall (fun h => group_ready h now = false) pre /\
    snd (group_pop g now) = Some out.
Proof.
  intros q now q' out H. apply pop_aux_inv in H as (pre & g & post & g' & E & F & G & _).
  exists pre, g, post. rewrite G. auto.
Qed.
Print Assumptions C12_serves_first_ready.

(* a group whose only remaining file is younger than the last-file delay is
   not ready - so by the two theorems above it is passed over without blocking *)
Theorem C12_last_delay_skips : forall g f now,
  gfiles g = [f] -> is_alloc f = false ->
  0 < tdelay (gtag g) -> now - ftime f < tdelay (gtag g) ->
  group_ready g now = false.
Proof.
  intros g f now Hf Ha Hd Hy. apply Z.ltb_lt in Hd, Hy.
  unfold group_ready, group_pop. rewrite Hf. simpl. rewrite Ha, Hd, Hy. reflexivity.
Qed.
Print Assumptions C12_last_delay_skips.

From STS Require Import Proofs.QueueRotP.

(* one Pop: either the ready group hn is the one served, or the group served
   instead goes behind it: the number of groups of hn's priority in front of hn
   drops by one when the served group has that priority and is unchanged otherwise *)
Theorem C12_rotation_step : forall q now q' out hn p h,
  psorted (map prio q) -> NoDup (map gname q) ->
  pop_aux q now = (q', Some out) ->
  In h q -> gname h = hn -> prio h = p -> group_ready h now = true ->
  exists g, first_ready q now = Some g /\
    (gname g = hn \/
     (gname g <> hn /\
      (rank hn p q' + (if (prio g =? p)%Z then 1 else 0))%nat = rank hn p q)).
Proof.
  intros q now q' out hn p h Hs Hnd H Hin <- <- Hr.
  apply pop_aux_inv in H as (pre & g & post & g' & -> & F & G & ->).
  exists g. split; [exact (first_ready_struct _ _ _ _ F (group_ready_pop _ _ _ _ G))|].
  destruct (name_eqb (gname g) (gname h)) eqn:Eg; [left; apply name_eqb_eq, Eg|]. right.
  apply name_eqb_false_neq in Eg as Hgn. split; [exact Hgn|].
  (* h is behind g, so by uniqueness of names its name does not occur in front of g *)
  assert (Hpost : In h post).
  { apply in_app_or in Hin as [Hin|[Hin|Hin]]; [|congruence|exact Hin].
    rewrite Forall_forall in F. rewrite (F h Hin) in Hr. discriminate. }
  assert (Hpre : ~ In (gname h) (map gname pre)).
  { rewrite map_app in Hnd. intros C. apply (NoDup_app_disjoint _ _ _ Hnd C).
    right. apply in_map, Hpost. }
  destruct (group_pop_same _ _ _ _ G) as [_ En]. apply group_pop_prio in G.
  rewrite map_app in Hs. apply psorted_app_r in Hs. cbn [map] in Hs.
  rewrite !rank_app, countp_skip, (rank_delay post g' h)
    by (rewrite ?map_map, ?(map_ext _ _ skip_name); congruence).
  cbn [rank]. rewrite Eg. Lia.lia.
Qed.
Print Assumptions C12_rotation_step.

(* bounded bypass over any run of Pops: a group that stays ready is passed over by
   groups of its own priority at most as many times as there are such groups in
   front of it (so at most (size of its priority class - 1) times) *)
Theorem C12_bounded_bypass : forall nows q hn p,
  psorted (map prio q) -> NoDup (map gname q) -> stays_ready hn p q nows ->
  (bypassed hn p q nows <= rank hn p q)%nat.
Proof.
  induction nows as [|now r IH]; intros q hn p Hs Hnd Hst; [simpl; Lia.lia|].
  cbn [stays_ready] in Hst. destruct Hst as [[h [Hin [Hh [Hp Hr]]]] Hrest].
  cbn [bypassed].
  destruct (pop_aux q now) as [q' [out|]] eqn:P.
  - destruct (C12_rotation_step q now q' out hn p h Hs Hnd P Hin Hh Hp Hr) as [g [Fr [Eg|[Eg Erank]]]];
      rewrite Fr.
    + rewrite Eg, name_eqb_refl. Lia.lia.
    + apply name_eqb_false_neq in Eg. rewrite Eg.
      cbn [fst] in *. enough (bypassed hn p q' r <= rank hn p q')%nat by Lia.lia. apply IH; auto.
      * rewrite (pop_aux_map _ _ _ _ Hs P). exact Hs.
      * rewrite (pop_aux_names _ _ _ _ P). exact Hnd.
  - (* nothing was emitted although h is ready: impossible *)
    apply pop_aux_inv in P as [N _]. rewrite Forall_forall in N. rewrite (N h Hin) in Hr. discriminate.
Qed.
Print Assumptions C12_bounded_bypass.

Theorem C12_rank_below_class_size : forall q hn p, (rank hn p q <= countp p q)%nat.
Proof.
  induction q as [|x r IH]; intros hn p; [simpl; Lia.lia|]. unfold countp in *. simpl.
  destruct (name_eqb (gname x) hn); destruct (prio x =? p); simpl; specialize (IH hn p); Lia.lia.
Qed.
Print Assumptions C12_rank_below_class_size.

Theorem C12_front_of_class_is_served : forall q now q' out hn p h,
  psorted (map prio q) -> NoDup (map gname q) ->
  pop_aux q now = (q', Some out) ->
  In h q -> gname h = hn -> prio h = p -> group_ready h now = true ->
  rank hn p q = 0%nat ->
  exists g, first_ready q now = Some g /\ (gname g = hn \/ prio g <> p).
Proof.
  intros q now q' out hn p h Hs Hnd P Hin Hh Hp Hr Hrank.
  destruct (C12_rotation_step q now q' out hn p h Hs Hnd P Hin Hh Hp Hr) as [g [Fr [Eg|[_ Erank]]]];
    exists g; auto.
  split; auto. right. intros C. apply Z.eqb_eq in C. rewrite C in Erank. Lia.lia.
Qed.
Print Assumptions C12_front_of_class_is_served.

(* three groups of one priority, each with a file of several chunks: served in
   rotation; the third group is passed over exactly twice = its rank (the bound is tight) *)
Example C12_rotation_example :
  let tg := mktag 1 OFIFO 10 0 in
  let f := fun n : Z => mkqf [n] 50 25 0 false [] [] 0 25 in
  let q0 := push [] [(f 1, [1], Some tg); (f 2, [2], Some tg); (f 3, [3], Some tg)] in
  map (fun n => match first_ready (fst (fold_left (fun '(q, _) now => pop q now) (repeat 100 n) (q0, None))) 100 with
                | Some g => gname g | None => [] end) [0; 1; 2; 3; 4; 5]%nat
    = [[1]; [2]; [3]; [1]; [2]; [3]]
  /\ rank [3] 1 q0 = 2%nat /\ bypassed [3] 1 q0 [100; 100; 100; 100] = 2%nat.
Proof. vm_compute. repeat split; reflexivity. Qed.
Print Assumptions C12_rotation_example.
