(* C13 - the payload wire format round-trips. *)
From Coq Require Import List ZArith Bool.
From STS Require Import Model.Queue Model.Auth Model.Wire Proofs.AuthP Proofs.WireP.
Import ListNotations.
Open Scope Z_scope.

(* the header: any list of descriptors - names, rename targets, predecessors and
   hashes any byte strings (quotes, backslashes, control characters, <, >, &,
   U+2028/9, multi-byte sequences), times any (seconds, nanoseconds), sizes and
   byte ranges any integers within +-10^19 - is decoded to exactly the same list *)
Theorem C13_header_roundtrip : forall ds, descs_ok ds -> parse_header (enc_header ds) = Some (ds, []).
Proof. exact parse_header_enc. Qed.
Print Assumptions C13_header_roundtrip.

(* the whole payload: for every number of parts, all part lengths (0 included),
   every separator convention, every chunking of the incoming stream (g) and
   every buffer size of the consumer (req): the same ordered descriptors and,
   for each part, exactly its bytes *)
Theorem C13_wire_roundtrip : forall ds bodies sep req g,
  descs_ok ds -> lens_ok ds bodies -> (1 <= req)%nat -> grants_ok g ->
  decode (Z.of_nat (length (enc_header ds))) sep (wire_of ds bodies) req g
  = Some (complete_parts (map (translate_desc sep) ds) bodies).
Proof.
  intros. unfold wire_of. rewrite decode_wire, split_roundtrip by auto using lens_ok_translate. reflexivity.
Qed.
Print Assumptions C13_wire_roundtrip.

(* every truncation point inside the header: refused *)
Theorem C13_truncated_header_refused : forall ds bodies sep req g k,
  (k < length (enc_header ds))%nat ->
  decode (Z.of_nat (length (enc_header ds))) sep (firstn k (wire_of ds bodies)) req g = None.
Proof.
  intros ds bodies sep req g k Hk. unfold decode, decode_header.
  rewrite (proj2 (Z.leb_gt _ _) (enc_header_nonempty ds)), Nat2Z.id, firstn_length.
  rewrite (proj2 (Nat.ltb_lt _ _)) by Lia.lia. reflexivity.
Qed.
Print Assumptions C13_truncated_header_refused.

(* every truncation point inside the body: the parts that arrived in full are
   reported unchanged; the part in which the stream ends is flagged short and
   holds a strict prefix of its own bytes - never a byte of its neighbour; no
   later part is reported *)
Theorem C13_truncated_body_flagged : forall ds bodies sep req g k,
  descs_ok ds -> lens_ok ds bodies -> (1 <= req)%nat -> grants_ok g ->
  (length (enc_header ds) <= k < length (wire_of ds bodies))%nat ->
  let kb := (k - length (enc_header ds))%nat in
  exists j d b rest,
    nth_error (map (translate_desc sep) ds) j = Some d /\ nth_error bodies j = Some b /\
    b = firstn (kb - length (concat (firstn j bodies))) b ++ rest /\ rest <> [] /\
    decode (Z.of_nat (length (enc_header ds))) sep (firstn k (wire_of ds bodies)) req g =
      Some (complete_parts (firstn j (map (translate_desc sep) ds)) (firstn j bodies) ++
            [(d, firstn (kb - length (concat (firstn j bodies))) b, false)]).
Proof.
  intros ds bodies sep req g k Hok Hl Hreq Hg Hk kb.
  unfold wire_of in *. rewrite app_length in Hk.
  destruct (split_truncated (map (translate_desc sep) ds) bodies kb (lens_ok_translate sep _ _ Hl))
    as (j & d & b & rest & E1 & E2 & E3 & E4 & E5); [subst kb; Lia.lia|].
  exists j, d, b, rest. rewrite firstn_app, (firstn_all2 (enc_header ds)) by Lia.lia. fold kb.
  rewrite decode_wire, E5 by auto. auto.
Qed.
Print Assumptions C13_truncated_body_flagged.

(* the operational reader (PartDecoder.Read driven by the consumer's loop) cuts the
   stream exactly at the announced lengths, whatever the chunking *)
Theorem C13_reader_refines_spec : forall ds stream req g,
  (1 <= req)%nat -> grants_ok g -> decode_body ds stream req g = split_spec ds stream.
Proof. exact decode_body_spec. Qed.
Print Assumptions C13_reader_refines_spec.

(* either separator convention: plain segments joined by the sender's separator
   arrive as the same segments joined by '/' *)
Theorem C13_separator_translation : forall sep segs,
  sep <> 0 -> segs <> [] -> plain_list segs ->
  Forall (no_char sep) segs -> Forall (no_char 47) segs ->
  translate sep (wjoin sep segs) = wjoin 47 segs.
Proof.
  intros sep segs Hsep Hne Hp Hs H47. unfold translate.
  rewrite (proj2 (Z.eqb_neq _ _) Hsep), StringsP.wsplit_join, filter_plain by auto.
  destruct segs as [|x r]; [congruence|]. unfold clean_path.
  (* the joined name begins with the first byte of x, which is not '/' *)
  inversion Hp as [|? ? Hx _].
  destruct x as [|c x']; [discriminate|].
  inversion H47 as [|? ? Hc _]; subst. inversion Hc as [|? ? Hc0 _]; subst.
  assert (J : exists t, wjoin 47 ((c :: x') :: r) = c :: t) by (destruct r; simpl; eauto).
  destruct J as [t J]. rewrite J at 1. rewrite Hc0, StringsP.wsplit_join, clean_rel_plain by (auto; discriminate).
  reflexivity.
Qed.
Print Assumptions C13_separator_translation.

(* the hypotheses are satisfiable by a non-trivial payload (two parts, a name
   with a quote, U+2028 and a backslash separator, a negative time) *)
Example C13_nonvacuous :
  let d1 := mkdesc [100; 92; 34; 226; 128; 168; 1] [] [] [97] (-5) 999999999 10 2 5 in
  let d2 := mkdesc [195; 169] [114] [100] [98] 1700000000 0 3 0 3 in
  forallb desc_ok [d1; d2] = true /\
  decode (Z.of_nat (length (enc_header [d1; d2]))) 92 (wire_of [d1; d2] [[7; 8; 9]; [1; 2; 3]]) 2 (fun _ => 1%nat)
  = Some [(translate_desc 92 d1, [7; 8; 9], true); (translate_desc 92 d2, [1; 2; 3], true)].
Proof. vm_compute. split; reflexivity. Qed.
Print Assumptions C13_nonvacuous.
