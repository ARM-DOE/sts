(* C03 - every eligible file is eventually delivered; nothing gets stuck.
   Partial: the protocol-level pieces below are theorems; goroutine scheduling,
   channels and timers are explored by the end-to-end fault scripts. *)
From Coq Require Import List ZArith Bool Permutation.
From STS Require Import Model.Sender Proofs.SenderP.
Import ListNotations.
Open Scope Z_scope.

(* whatever failures came before, once a request is answered successfully the
   payload is completely forwarded: nothing stays in the send loop *)
Theorem C03_send_loop_drains_when_faults_stop : forall ps n acc f,
  let r := send_loop (S f) ps [ETx n true] acc in
  finished r = true /\ rest r = [] /\ forwarded r = forwarded acc ++ [ps].
Proof. intros. simpl. auto. Qed.
Print Assumptions C03_send_loop_drains_when_faults_stop.

(* and through any sequence of failures no part is lost on the way *)
Theorem C03_no_part_lost_by_failures : forall ps evs,
  NoDup ps -> Permutation (accounted (run_send ps evs)) ps.
Proof. intros ps evs _. apply (send_loop_accounts _ ps evs). Qed.
Print Assumptions C03_no_part_lost_by_failures.

(* a negative or missing poll answer always leads to another attempt: the
   sender never gives up *)
Theorem C03_never_gives_up : forall code polled attempts,
  code = POLL_NONE \/ code = POLL_FAILED ->
  on_poll code polled attempts = ARetry \/ on_poll code polled attempts = AKeepPolling.
Proof.
  intros code polled attempts Hn. pose proof (negative_answers_never_release code polled attempts Hn).
  destruct (on_poll code polled attempts); tauto.
Qed.
Print Assumptions C03_never_gives_up.
