(* C04 - files of a group are delivered in order; none before its predecessor
   (receiver side; the sender-side half is C10). *)
From Coq Require Import List ZArith Bool.
From STS Require Import Model.Ranges Model.Queue Model.LogM Model.Stage Proofs.StageP.
Import ListNotations.
Open Scope Z_scope.

(* The finalize handler delivers (logs) a file only when its predecessor
   reference is empty, the file itself, found in the receive log (exact name,
   after fix 88c8cb3), or known to the cache as delivered (finalized / logged).
   A reference cleared by the periodic cleaner (cycle) is the "empty" case. *)
Theorem C04_no_overtake_step : forall s now o,
  rlog (handle_final s now o) <> rlog s ->
  let f := obj s o in
  let pst := cache_state s (f_prev f) in
  f_prev f = [] \/ f_prev f = f_name f \/
  (pst = ST_UNKNOWN /\ log_has s (f_prev f) [] = true) \/
  (pst <> ST_UNKNOWN /\ pst <> ST_RECEIVED /\ pst <> ST_FAILED /\ pst <> ST_VALIDATED).
Proof.
  intros s now o Hne f pst. unfold handle_final in Hne. fold f in Hne. fold pst in Hne.
  assert (W : forall t, rlog (to_wait s (f_prev f) o t) = rlog s)
    by (intro; apply (to_wait_proj rlog); reflexivity).
  destruct (negb _); [congruence|].
  destruct (f_prev f) as [|c pv] eqn:P; [left; auto|]. right. cbn [orb] in Hne.
  destruct (name_eqb (c :: pv) (f_name f)) eqn:E; [left; apply QueueP.name_eqb_eq; auto|]. right.
  destruct (pst =? ST_UNKNOWN) eqn:U.
  - destruct (nmem _ _); [rewrite W in Hne; congruence|].
    destruct (log_has s (c :: pv) []); [left; split; [apply Z.eqb_eq|]; auto | rewrite W in Hne; congruence].
  - right. destruct (pst =? ST_RECEIVED) eqn:A, (pst =? ST_FAILED) eqn:B, (pst =? ST_VALIDATED) eqn:C;
      cbn [orb] in Hne; rewrite ?W in Hne; try congruence.
    rewrite Z.eqb_neq in *. auto.
Qed.
Print Assumptions C04_no_overtake_step.

(* a validated file whose predecessor is received / failed / validated but not
   delivered is held: parked on the wait list, body and log untouched *)
Theorem C04_held_is_waiting : forall s now o,
  let f := obj s o in
  cache_state s (f_name f) = ST_VALIDATED ->
  f_prev f <> [] -> f_prev f <> f_name f ->
  (cache_state s (f_prev f) = ST_RECEIVED \/ cache_state s (f_prev f) = ST_FAILED \/
   cache_state s (f_prev f) = ST_VALIDATED) ->
  handle_final s now o = to_wait s (f_prev f) o false /\
  rlog (handle_final s now o) = rlog s /\ waits (handle_final s now o) = waits s.
Proof. exact held_is_waiting. Qed.
Print Assumptions C04_held_is_waiting.

(* delivery = one log record first, then the move; nothing else appends *)
Theorem C04_finalize_logs_first : forall s now o,
  (rlog (finalize s now o) = rlog s /\ finals (finalize s now o) = finals s) \/
  (exists f, nth_error (heap s) o = Some f /\
     rlog (finalize s now o) = rlog s ++ [mklr (f_name f) (f_renamed f) (f_hash f) (f_size f) now]).
Proof. exact finalize_logs_first. Qed.
Print Assumptions C04_finalize_logs_first.

(* over every reachable state (no restriction on the history) *)
From STS Require Import Proofs.StageKP.

(* in every state the receiver can reach - by any sequence of announcements, parts,
   duplicates, corruption, tampering, queries, cleaning, timers, cache ageing,
   crashes with any image, restarts - whatever the cache knows as put away
   (finalized in this run or loaded from the log) has a record in the receive log *)
Theorem C04_put_away_means_logged : forall H ops n o,
  In (n, o) (cache (srun H init_stage ops)) ->
  ST_FINALIZED <= ostate (srun H init_stage ops) o -> logged (srun H init_stage ops) n.
Proof.
  intros H ops n o Hin Hst.
  destruct (k_cache _ (KR_run H ops init_stage KR_init) n o Hin) as [_ [_ A]]. exact (A Hst).
Qed.
Print Assumptions C04_put_away_means_logged.

(* hence, in every reachable state, the finalize handler logs and delivers a file
   only if its predecessor reference is empty, the file itself, or a name that has
   a record in the receive log ALREADY: no file is delivered before its predecessor *)
Theorem C04_no_overtake_reachable : forall H ops now o,
  let s := srun H init_stage ops in
  rlog (handle_final s now o) <> rlog s ->
  let f := obj s o in
  f_prev f = [] \/ f_prev f = f_name f \/ logged s (f_prev f).
Proof.
  intros H ops now o s Hne f.
  assert (K : KR s) by (apply KR_run, KR_init).
  destruct (C04_no_overtake_step s now o Hne) as [P|[P|[[_ P]|P]]]; auto.
  right; right. fold f in P. destruct P as (P1 & P2 & P3 & P4).
  unfold cache_state in *. destruct (cache_obj s (f_prev f)) as [c|] eqn:C; [|congruence].
  apply (k_cache _ K _ c (alookup_in _ _ _ C)).
  pose proof (obj_state_range s c K) as Rg. unfold ostate, st_ok in *.
  unfold ST_UNKNOWN, ST_RECEIVED, ST_FAILED, ST_VALIDATED, ST_FINALIZED, ST_LOGGED in *. Lia.lia.
Qed.
Print Assumptions C04_no_overtake_reachable.
