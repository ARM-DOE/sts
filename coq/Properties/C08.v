(* C08 - the sender never counts a part as sent unless the receiver recorded
   it; only the remainder is sent again; nothing is skipped or abandoned. *)
From Coq Require Import List ZArith Bool Permutation.
From STS Require Import Model.Sender Proofs.SenderP.
Import ListNotations.
Open Scope Z_scope.

(* For EVERY sequence of request failures (error status, partial-content answer
   with a count, failed recovery requests any number of times) and file changes:
   every part of the payload ends up exactly once among - acknowledged and
   forwarded to the tracker / dropped because its file changed / still to be
   sent.  Nothing is skipped, abandoned or counted twice. *)
Theorem C08_no_part_lost_or_counted_twice : forall ps evs,
  NoDup ps -> Permutation (accounted (run_send ps evs)) ps.
Proof. intros ps evs _. apply (send_loop_accounts _ ps evs). Qed.
Print Assumptions C08_no_part_lost_or_counted_twice.

(* What is counted as sent after a failed request is exactly the leading k parts
   the receiver reported (all of them when k >= the number of parts), in order,
   and the remainder is exactly the rest. *)
Theorem C08_only_reported_head_counts : forall k ps fwd remain,
  ack_split k ps = (fwd, remain) ->
  concat fwd ++ remain = ps /\ concat fwd = firstn k ps /\ remain = skipn k ps.
Proof. exact ack_split_exact. Qed.
Print Assumptions C08_only_reported_head_counts.

(* ... and the next request carries exactly that remainder (minus parts whose
   file changed meanwhile) - the acknowledged head is not transmitted again. *)
Theorem C08_only_remainder_resent : forall f ps n r k r1 fwd remain ch r2 acc q qs,
  (if Nat.eqb n 0 then recover_count r else Some (n, r)) = Some (k, r1) ->
  ack_split k ps = (fwd, remain) -> remain <> [] ->
  r1 = EChanged ch :: r2 -> filter_changed remain ch = q :: qs ->
  send_loop (S f) ps (ETx n false :: r) acc =
  send_loop f (q :: qs) r2
    (add_drop (add_fwd (add_req acc ps) fwd) (filter (fun p => existsb (Z.eqb p) ch) remain)).
Proof.
  intros f ps n r k r1 fwd remain ch r2 acc q qs Hc Ha Hne Hr Hf.
  cbn [send_loop]. rewrite Hc, Ha. destruct remain as [|t0 tl]; [congruence|].
  subst r1. rewrite Hf. reflexivity.
Qed.
Print Assumptions C08_only_remainder_resent.

(* removing the parts of changed files keeps every other part *)
Theorem C08_filter_keeps_unchanged_parts : forall ps ch,
  NoDup ps -> Permutation (filter_changed ps ch ++ filter (inb ch) ps) ps.
Proof. intros ps ch _. apply filter_changed_perm. Qed.
Print Assumptions C08_filter_keeps_unchanged_parts.

(* the tracker (startTrack): "a file is written to the sent log and polled only once
   every one of its bytes has been acknowledged" *)
From STS Require Import Model.Tracker Proofs.TrackerP.

(* for EVERY sequence of forwarded payloads (any grouping and order of parts, several files
   interleaved, versions of a name replacing one another): whatever the tracker writes to
   the sent log or hands to the poller, the lengths of the parts acknowledged for that very
   version of that name add up to at least the send size announced for it *)
Theorem C08_logged_only_when_fully_acknowledged : forall pls ev,
  Forall (Forall (fun q => 0 <= tp_len q)) pls ->
  In ev (snd (track_run pls)) ->
  match ev with
  | TLogged n h | THanded n h =>
      exists p, In p (concat pls) /\ tp_name p = n /\ tp_hash p = h /\ tp_send p <= acked n h (concat pls)
  end.
Proof.
  intros pls ev Hp Hin. destruct (tinv_track_run pls Hp) as (_ & _ & IE).
  destruct ev; destruct (IE _ Hin) as (e & [S (p & Hi & Hn & Hh & Hs)] & <- & L); exists p;
    rewrite Hs; eauto using Z.le_trans.
Qed.
Print Assumptions C08_logged_only_when_fully_acknowledged.

(* ... and a byte count is enough: pairwise disjoint ranges inside [0, size) whose lengths
   add up to size leave out no byte (the send loop forwards every part exactly once,
   C08_no_part_lost_or_counted_twice; the chunks of a file are disjoint, C11) *)
Theorem C08_count_means_every_byte : forall size l x,
  Forall (within 0 size) l -> ForallOrdPairs disj l -> size <= total l ->
  0 <= x < size -> exists i, In i l /\ fst i <= x < snd i.
Proof.
  intros size l x Hw Hd Ht. apply (disjoint_ranges_adding_up_cover 0 size l x Hw Hd).
  rewrite Z.sub_0_r. exact Ht.
Qed.
Print Assumptions C08_count_means_every_byte.

(* whatever is complete is handed on: nothing complete stays in the tracker *)
Theorem C08_tracker_keeps_only_incomplete : forall pls n e,
  In (n, e) (fst (track_run pls)) -> te_sent e < te_size e.
Proof.
  intros pls n e Hin. unfold track_run in Hin.
  destruct (fold_left track_payload pls ([], [])) as [m evs]. unfold hand_off in Hin. cbn [fst] in Hin.
  apply filter_In in Hin as [_ L]. cbn [snd] in L. apply negb_true_iff in L. apply Z.leb_gt in L. exact L.
Qed.
Print Assumptions C08_tracker_keeps_only_incomplete.
