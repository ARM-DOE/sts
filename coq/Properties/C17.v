(* C17 - only eligible files are sent, each version once, changed files again. *)
From Coq Require Import List ZArith Bool.
From STS Require Import Model.Queue Model.Sender Proofs.SenderP.
Import ListNotations.
Open Scope Z_scope.

(* a scan hands a file to the sender if and only if: the directory is not
   disabled, no ancestor directory is skipped, it is not hidden (unless hidden
   files are enabled), no ignore pattern (incl. lock files, the disable marker
   and non-HTTP tags) matches, an include pattern matches when any is
   configured, it is at least the minimum age old, it is not empty, and it is
   new or differs in size or modification time from its cache entry *)
Theorem C17_scan_returns_iff : forall disabled ih hi min_age mtime f,
  scan_returns disabled ih hi min_age mtime f = true <->
  (disabled = false /\ fi_dir_skipped f = false /\
   (ih = true \/ fi_hidden f = false) /\ fi_ignored f = false /\
   (hi = false \/ fi_included f = true) /\ min_age <= fi_age f /\ fi_size f <> 0 /\
   match fi_cached f with
   | None => True
   | Some (cs, ct) => cs <> fi_size f \/ ct <> mtime
   end).
Proof.
  intros. unfold scan_returns.
  rewrite !andb_true_iff, orb_true_iff, !negb_true_iff, andb_false_iff, negb_false_iff,
    Z.leb_le, Z.eqb_neq, !and_assoc.
  (* the tests in the order of the code; only the last one looks at the cache entry *)
  repeat apply and_iff_compat_l.
  destruct (fi_cached f) as [[cs ct]|]; [|tauto].
  rewrite orb_true_iff, !negb_true_iff, !Z.eqb_neq. reflexivity.
Qed.
Print Assumptions C17_scan_returns_iff.

Theorem C17_unchanged_not_requeued : forall disabled ih hi min_age mtime f,
  fi_cached f = Some (fi_size f, mtime) -> scan_returns disabled ih hi min_age mtime f = false.
Proof. exact unchanged_not_requeued. Qed.
Print Assumptions C17_unchanged_not_requeued.

(* over histories: whatever happened before (any sequence of scans over any
   trees, clocks, disable-marker states), a scan returns exactly the files that
   are eligible now and whose (size, mtime) differs from the version of that name
   that was returned last - older, newer, larger or smaller *)
Theorem C17_scan_history : forall pre cfg now world post,
  nth (length pre) (scan_run (pre ++ (cfg, now, world) :: post) []) [] =
  filter (fun d => eligible cfg now d &&
                   changed_since (last_returned (scan_run pre []) (df_name d) None) d) world.
Proof.
  intros. rewrite (scan_run_nth pre _ _ 0).
  apply filter_ext. intros d. rewrite scan_file_split, cache_tracks. reflexivity.
Qed.
Print Assumptions C17_scan_history.

Theorem C17_returned_then_unchanged_skipped : forall pre cfg now world cfg' now' world' post d,
  In d (nth (length pre) (scan_run (pre ++ (cfg, now, world) :: (cfg', now', world') :: post) []) []) ->
  NoDup (map df_name world) ->
  ~ In d (nth (S (length pre)) (scan_run (pre ++ (cfg, now, world) :: (cfg', now', world') :: post) []) []).
Proof.
  intros pre cfg now world cfg' now' world' post d.
  rewrite (scan_run_nth pre _ _ 0), (scan_run_nth pre _ _ 1). intros Hin Hnd.
  exact (kept_version_not_returned false cfg now world _ d [] false cfg' now' world' Hnd Hin (Forall_nil _)).
Qed.
Print Assumptions C17_returned_then_unchanged_skipped.

(* the periodic cache clean-up (once per cache-age interval, at the head of a scan)
   changes nothing about what that scan returns: an unchanged file that is still
   there is not sent again because time passed ... *)
Theorem C17_cache_cleanup_invisible_to_scan : forall clean cfg now world c,
  fst (scan_once_c clean cfg now world c) = fst (scan_once cfg now world c).
Proof. exact clean_invisible_to_scan. Qed.
Print Assumptions C17_cache_cleanup_invisible_to_scan.

(* ... and all it forgets are names whose file is gone *)
Theorem C17_cache_cleanup_forgets_exactly_the_absent : forall world c n,
  sc_get (sc_clean world c) n = if sc_present world n then sc_get c n else None.
Proof. exact sc_get_clean. Qed.
Print Assumptions C17_cache_cleanup_forgets_exactly_the_absent.

(* over histories WITH clean-ups: a version that a scan returned and that stays where it is,
   unchanged, through any number of further scans - each with or without the cache clean-up,
   over trees that change arbitrarily otherwise - is never returned again *)
Theorem C17_returned_and_kept_never_requeued : forall cl cfg now world c d mid cl' cfg' now' world',
  NoDup (map df_name world) -> In d (fst (scan_once_c cl cfg now world c)) ->
  Forall (fun ev => In d (ev_world ev) /\ NoDup (map df_name (ev_world ev))) mid ->
  In d world' ->
  ~ In d (fst (scan_once_c cl' cfg' now' world' (scan_cache_c mid (snd (scan_once_c cl cfg now world c))))).
Proof. intros. apply kept_version_not_returned; assumption. Qed.
Print Assumptions C17_returned_and_kept_never_requeued.

(* the premises are met by a concrete history: returned once, then a clean-up scan, then not returned *)
Example C17_kept_example :
  let d := mkdfile [97] 5 (-100) false false false false in
  let cfg := mkscfg false false false 0 in
  fst (scan_once_c false cfg 0 [d] []) = [d] /\
  fst (scan_once_c true cfg 0 [d] (scan_cache_c [(true, cfg, 0, [d])] (snd (scan_once_c false cfg 0 [d] [])))) = [].
Proof. vm_compute. split; reflexivity. Qed.
Print Assumptions C17_kept_example.

(* the queue cache (cache/local.go) is where "the version returned last" lives *)
From STS Require Import Model.Cache Proofs.CacheP.

(* after Add the entry IS the version that was added - size, mtime, the store's private
   data (link target) and hash - and it counts as confirmed only if the entry it replaces
   was confirmed and is the same version *)
Theorem C17_cache_records_the_version_added : forall c n size time meta hash,
  exists d, cget n (c_mem (cadd c n size time meta hash)) = Some (mkce size time meta hash d) /\
    (d = true <->
     exists e, cget n (c_mem c) = Some e /\ ce_done e = true /\
       ce_size e = size /\ ce_time e = time /\ (hash = [] \/ ce_hash e = hash)).
Proof.
  intros c n size time meta hash. unfold cadd. cbn [c_mem]. rewrite cget_cset_same.
  destruct (cget n (c_mem c)) as [e|]; eexists; (split; [reflexivity|]).
  - rewrite andb_true_iff, negb_true_iff, c_other_version_false. split; [eauto|].
    intros (e0 & [= <-] & H). exact H.
  - split; [discriminate|]. intros (e0 & [=] & _).
Qed.
Print Assumptions C17_cache_records_the_version_added.

Theorem C17_cache_add_touches_one_entry : forall c n size time meta hash n0,
  n0 <> n -> cget n0 (c_mem (cadd c n size time meta hash)) = cget n0 (c_mem c).
Proof. intros. apply cget_cset_other. assumption. Qed.
Print Assumptions C17_cache_add_touches_one_entry.
