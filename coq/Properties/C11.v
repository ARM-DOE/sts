(* C11 - chunks and payload parts tile every file exactly. *)
From Coq Require Import List ZArith Bool Lia.
From STS Require Import Model.Ranges Model.Chunk Proofs.RangesP Proofs.ChunkP.
Import ListNotations.
Open Scope Z_scope.

(* The chunks emitted for a new file are non-empty, ascending, contiguous,
   cover exactly [0,size) and none exceeds the configured chunk size
   (desired = 0 means "whole file"). *)
Theorem C11_chunks_tile_file : forall fuel size desired cs,
  0 <= desired -> 0 <= size ->
  chunks_plain fuel size desired 0 = Some cs ->
  tiles_from 0 size cs /\ (0 < desired -> Forall (fun c => snd c <= desired) cs).
Proof. intros; eapply chunks_plain_tile; eauto. Qed.
Print Assumptions C11_chunks_tile_file.

(* ... and the emission loop always terminates (enough fuel exists). *)
Theorem C11_chunks_terminate : forall fuel size desired,
  0 < desired -> 0 <= size -> size <= Z.of_nat fuel * desired ->
  exists cs, chunks_plain fuel size desired 0 = Some cs.
Proof. intros; eapply chunks_plain_total; eauto; lia. Qed.
Print Assumptions C11_chunks_terminate.

(* For a file being resumed the chunks tile exactly the ranges reported
   missing, range after range, never crossing a range boundary. *)
Theorem C11_resumed_chunks_tile_missing : forall fuel b e rest desired cs,
  0 < desired -> wf_left ((b, e) :: rest) ->
  chunks_rec fuel ((b, e) :: rest) 0 desired = Some cs ->
  tiles_list ((b, e) :: rest) cs /\ Forall (fun c => snd c <= desired) cs.
Proof.
  intros fuel b e rest desired cs Hd Hwf H.
  pose proof (chunks_rec_tile fuel ((b, e) :: rest) 0 desired cs Hd) as T.
  rewrite remaining_0 in T. auto.
Qed.
Print Assumptions C11_resumed_chunks_tile_missing.

(* The ranges sent again are exactly the bytes the receiver does not report
   holding, whenever its record (in any listing order) is non-empty-ranged,
   disjoint and inside the file - which C09 proves of every record built on D. *)
Theorem C11_missing_is_complement : forall ps size,
  0 <= size ->
  sorted_disjoint_b (sort_ranges ps) = true ->
  lower_bounded 0 (sort_ranges ps) ->
  (forall i, covered ps i -> i < size) ->
  forall i, covered (missing ps size) i <-> (0 <= i < size /\ ~ covered ps i).
Proof. exact missing_complement. Qed.
Print Assumptions C11_missing_is_complement.

Theorem C11_send_size_is_missing_bytes : forall left cs,
  tiles_list left cs -> sum_len cs = send_size left.
Proof.
  induction left as [|[b e] rest IH]; intros cs H; simpl in H.
  - subst; reflexivity.
  - destruct H as (c1 & c2 & -> & T1 & T2).
    rewrite sum_len_app, (tiles_from_sum _ _ _ T1), (IH _ T2). reflexivity.
Qed.
Print Assumptions C11_send_size_is_missing_bytes.

(* The binner: for every sequence of chunks and idle flushes, with a payload
   size of at least 10 bytes (so that the 10% slack is >= 1), the parts cut
   from each chunk tile that chunk in transmission order, nothing is dropped,
   and no payload exceeds capacity + slack. *)
Theorem C11_parts_tile_chunks : forall evs cap st',
  1 <= fluff_of cap ->
  Forall (fun ev => 0 < snd (snd ev)) evs ->
  pack cap init_bstate evs = Some st' ->
  dropped st' = [] /\
  Forall (fun bn => bbytes bn <= cap + fluff_of cap) (out st') /\
  exists pss, all_parts st' = concat pss /\
              Forall2 (fun ev ps => let '(_, (id, b, n)) := ev in ptiles id b (b + n) ps) evs pss.
Proof.
  intros evs cap st' Hfl Hwf H.
  destruct (pack_tiles evs cap init_bstate st' Hfl (init_inv cap) Hwf H) as (pss & ((_ & HO) & HD & HP) & HT).
  split; [exact HD|]. split; [exact HO|]. exists pss. split; [exact HP | exact HT].
Qed.
Print Assumptions C11_parts_tile_chunks.

Theorem C11_split_preserves : forall bn k hd tl,
  bin_split bn k = Some (hd, tl) ->
  bparts hd ++ bparts tl = bparts bn /\ bbytes hd + bbytes tl = bbytes bn /\
  bbytes tl = bytes_of (bparts tl).
Proof.
  intros bn k hd tl H. unfold bin_split in H.
  destruct ((k <? 1)%nat || (length (bparts bn) <=? k)%nat); [discriminate|].
  inversion H; simpl. rewrite firstn_skipn. repeat split; lia.
Qed.
Print Assumptions C11_split_preserves.

(* Full statement refuted - recorded findings. *)
Theorem C11_zero_slack_drop_refuted :
  exists cap evs st', pack cap init_bstate evs = Some st' /\ dropped st' <> [].
Proof.
  exists 4, [(false, (1, 0, 4)); (false, (2, 0, 4))].
  eexists. split; [vm_compute; reflexivity | discriminate].
Qed.
Print Assumptions C11_zero_slack_drop_refuted.

Theorem C11_missing_overlap_refuted :
  exists ps size r, In r (missing ps size) /\ snd r < fst r.
Proof.
  exists [(2, 6); (4, 8)], 8, (6, 4). split; [vm_compute; auto|simpl; lia].
Qed.
Print Assumptions C11_missing_overlap_refuted.
