(* C15 - unauthorised or premature requests are refused without any effect. *)
From Coq Require Import List ZArith Bool.
From STS Require Import Model.Queue Model.Auth Proofs.AuthP.
Import ListNotations.
Open Scope Z_scope.

(* a request reaches a wrapped route iff it names a (safe) source, the source's
   gate keeper is ready, the source is on the list (and matches the allowed
   character set) when a list is configured, and the key is on the key list when
   one is configured *)
Theorem C15_validate_decision : forall sources keys source key segs cs ready,
  handle_validate sources keys source key segs cs ready = ST_PASS <->
  (source <> [] /\ safe_source true segs = true /\ ready = true /\
   (sources = [] \/ (cs = true /\ smem source sources = true)) /\
   (keys = [] \/ smem key keys = true)).
Proof.
  intros. rewrite <- standard_valid_spec. unfold handle_validate, ST_400, ST_503, ST_403, ST_PASS.
  (* the tests in the order of the code; each refusal contradicts one conjunct *)
  destruct source; [intuition congruence|].
  destruct (safe_source true segs); simpl; [|intuition congruence].
  destruct ready; simpl; [|intuition congruence].
  destruct (standard_valid sources keys _ key cs); simpl; intuition congruence.
Qed.
Print Assumptions C15_validate_decision.

(* otherwise it is answered 400 (no / unsafe source), 503 (still recovering) or
   403 (not allowed), in that order, and the route is not entered *)
Theorem C15_refusal_codes : forall sources keys source key segs cs ready,
  (source = [] -> handle_validate sources keys source key segs cs ready = ST_400) /\
  (source <> [] -> safe_source true segs = false -> handle_validate sources keys source key segs cs ready = ST_400) /\
  (source <> [] -> safe_source true segs = true -> ready = false ->
     handle_validate sources keys source key segs cs ready = ST_503) /\
  (source <> [] -> safe_source true segs = true -> ready = true ->
     standard_valid sources keys source key cs = false ->
     handle_validate sources keys source key segs cs ready = ST_403).
Proof.
  intros. unfold handle_validate. destruct source; repeat split; try congruence; intros _.
  - intros ->. reflexivity.
  - intros -> ->. reflexivity.
  - intros -> -> ->. reflexivity.
Qed.
Print Assumptions C15_refusal_codes.
