(* C18 - transfer logs answer "was this file sent/received" exactly. *)
From Coq Require Import List ZArith Bool.
From STS Require Import Model.Queue Model.LogM Proofs.LogP.
Import ListNotations.
Open Scope Z_scope.

(* A receive-log record answers a look-up iff it is a record of exactly that
   name - and of exactly that hash when one is given; never a record of another
   file whose name merely contains the name, nor the same name with another
   hash.  (names and fields without the separator ':') *)
Theorem C18_record_matches_exactly_recv : forall n h r,
  n <> [] -> no_sep n = true -> clean_rec r ->
  (line_matches n h (line_recv r) = true <-> n = rn r /\ (h = [] \/ h = rh r)).
Proof.
  intros n h r Hne Hn (C1 & C2 & C3 & C4 & C5).
  change (line_recv r) with (rn r ++ SEP :: join [rr r; rh r; rsz r; rtm r; []]).
  rewrite line_matches_spec, split_join by (try discriminate; repeat constructor; auto). reflexivity.
Qed.
Print Assumptions C18_record_matches_exactly_recv.

Theorem C18_record_matches_exactly_sent : forall n h m hh sz tm ms,
  n <> [] -> no_sep n = true -> no_sep m = true -> no_sep hh = true ->
  no_sep sz = true -> no_sep tm = true -> no_sep ms = true ->
  (line_matches n h (line_sent m hh sz tm ms) = true <-> n = m /\ (h = [] \/ h = hh)).
Proof.
  intros n h m hh sz tm ms Hne Hn C1 C2 C3 C4 C5.
  change (line_sent m hh sz tm ms) with (m ++ SEP :: join [hh; sz; tm; ms]).
  rewrite line_matches_spec, split_join by (try discriminate; repeat constructor; auto). reflexivity.
Qed.
Print Assumptions C18_record_matches_exactly_sent.

(* Every day the window touches is visited - same day, across midnight and
   month boundaries (days are consecutive integers), reversed windows; an empty
   window visits nothing. *)
Theorem C18_window_days_visited : forall start stop d,
  start <> stop ->
  Z.min (day_of start) (day_of stop) <= d <= Z.max (day_of start) (day_of stop) ->
  In d (walk start stop).
Proof.
  intros start stop d Hne Hd. unfold walk. rewrite (proj2 (Z.eqb_neq _ _) Hne).
  pose proof (walk_fuel_enough start stop) as Hf.
  destruct (Z.ltb_spec stop start) as [L|L].
  - pose proof (day_of_mono stop start). apply walk_bwd_covers; Lia.lia.
  - pose proof (day_of_mono start stop). apply walk_fwd_covers; Lia.lia.
Qed.
Print Assumptions C18_window_days_visited.

Theorem C18_empty_window : forall t, walk t t = [].
Proof. intros. unfold walk. rewrite Z.eqb_refl. reflexivity. Qed.
Print Assumptions C18_empty_window.

(* The look-up over a whole log: yes iff a record of exactly that name (and
   hash) lies in a visited day file - EVERY record of every visited day is
   examined, so the same name logged several times with different hashes is
   found. *)
Theorem C18_lookup_exact : forall (lg : list (Z * list rrec)) n h start stop,
  n <> [] -> no_sep n = true ->
  Forall (fun dl => Forall clean_rec (snd dl)) lg ->
  (search (map (fun dl => (fst dl, map line_recv (snd dl))) lg) n h start stop = true <->
   exists d r, In d (walk start stop) /\
     In r (flat_map (fun dl => if fst dl =? d then snd dl else []) lg) /\
     rn r = n /\ (h = [] \/ rh r = h)).
Proof.
  intros lg n h start stop Hne Hn Hclean. rewrite search_spec.
  assert (C : forall d r, In r (flat_map (fun dl => if fst dl =? d then snd dl else []) lg) -> clean_rec r).
  { intros d. apply Forall_forall, Forall_flat_map. eapply Forall_impl; [|exact Hclean].
    intros dl H. destruct (fst dl =? d); auto. }
  split.
  - intros (d & line & Hd & Hl & Hm). rewrite lines_of_map in Hl. apply in_map_iff in Hl as (r & <- & Hr).
    apply C18_record_matches_exactly_recv in Hm as [-> Hh]; eauto. exists d, r. intuition auto.
  - intros (d & r & Hd & Hr & <- & Hh). exists d, (line_recv r). rewrite lines_of_map. repeat split; auto using in_map.
    apply C18_record_matches_exactly_recv; eauto. intuition auto.
Qed.
Print Assumptions C18_lookup_exact.

(* Replaying the receive log yields every field as written. *)
Theorem C18_replay_roundtrip : forall r,
  clean_rec r -> parse_line (line_recv r) = Some (rn r, rr r, rh r, rsz r, rtm r).
Proof.
  intros r (C1 & C2 & C3 & C4 & C5). unfold parse_line, line_recv.
  rewrite split_join by (try discriminate; repeat constructor; auto). reflexivity.
Qed.
Print Assumptions C18_replay_roundtrip.

(* Refuted for names containing the record separator: a limitation of the log
   format (recorded finding). *)
Theorem C18_colon_name_refuted :
  exists r, no_sep (rr r) = true /\ no_sep (rh r) = true /\
    parse_line (line_recv r) <> Some (rn r, rr r, rh r, rsz r, rtm r) /\
    exists n, n <> rn r /\ line_matches n [] (line_recv r) = true.
Proof.
  exists (mkrrec [97; 58; 98] [] [104] [49] [50]). split; [reflexivity|]. split; [reflexivity|].
  split; [vm_compute; discriminate|]. exists [97]. split; [discriminate | vm_compute; reflexivity].
Qed.
Print Assumptions C18_colon_name_refuted.
