(* C20 - staging clean-up removes only what is already delivered. *)
From Coq Require Import List ZArith Bool.
From STS Require Import Model.Ranges Model.Queue Model.LogM Model.Stage Proofs.StageP.
Import ListNotations.
Open Scope Z_scope.

(* cleanStrays (after fixes d299eeb and "a failed version is not a delivered one"):
   never touches complete (.full) or validated (.wait) bodies, delivered files, the
   log or the cache; only removes partials and companions; and removes a partial OR
   a companion only if the partial is older than the cleaning age AND (the cache knows
   the name as validated (held), put away or logged - NOT failed - with the companion's
   hash, or there is no companion) or the log holds a record of exactly that name and
   the companion's hash. A companion never goes without its partial. *)
Theorem C20_clean_stray_safe : forall s n,
  fulls (clean_stray s n) = fulls s /\ waits (clean_stray s n) = waits s /\
  finals (clean_stray s n) = finals s /\ rlog (clean_stray s n) = rlog s /\
  heap (clean_stray s n) = heap s /\ cache (clean_stray s n) = cache s /\
  (forall k v, In (k, v) (parts (clean_stray s n)) -> In (k, v) (parts s)) /\
  (forall k v, In (k, v) (cmps (clean_stray s n)) -> In (k, v) (cmps s)) /\
  (parts (clean_stray s n) <> parts s \/ cmps (clean_stray s n) <> cmps s ->
     exists sf, alookup n (parts s) = Some sf /\ sf_old sf = true /\
       ((ST_RECEIVED < cache_state s n /\ cache_state s n <> ST_FAILED /\
         match alookup n (cmps s) with None => True | Some c => c_hash c = cache_hash s n end) \/
        log_has s n (match alookup n (cmps s) with Some c => c_hash c | None => [] end) = true)).
Proof.
  intros s n. unfold clean_stray.
  destruct (alookup n (parts s)) as [sf|] eqn:L; [|repeat split; auto; intros [Hx|Hx]; congruence].
  destruct (sf_old sf) eqn:O; cbn [negb]; [|repeat split; auto; intros [Hx|Hx]; congruence].
  match goal with |- context [let '(del, delc) := ?x in _] => destruct x as [del delc] eqn:D end.
  (* when something is to go: why *)
  assert (K : del = true \/ delc = true -> exists sf0, Some sf = Some sf0 /\ sf_old sf0 = true /\
            ((ST_RECEIVED < cache_state s n /\ cache_state s n <> ST_FAILED /\
              match alookup n (cmps s) with None => True | Some c => c_hash c = cache_hash s n end) \/
             log_has s n (match alookup n (cmps s) with Some c => c_hash c | None => [] end) = true)).
  { intros Hd. exists sf. split; [reflexivity|]. split; [exact O|]. revert D.
    destruct ((0 <? cache_state s n) && negb (cache_state s n =? ST_FAILED)) eqn:C.
    - apply andb_true_iff in C as [C1%Z.ltb_lt C2%negb_true_iff%Z.eqb_neq].
      intros [= <- <-]. left. repeat split; auto.
      destruct (alookup n (cmps s)) as [c|]; auto. apply QueueP.name_eqb_eq.
      destruct Hd as [Hd|Hd]; [exact Hd | apply andb_true_iff in Hd; tauto].
    - destruct (log_has s n _); intros [= <- <-]; [auto | destruct Hd; discriminate]. }
  destruct del, delc; cbn; repeat split; eauto using aremove_in; intros [Hx|Hx]; congruence.
Qed.
Print Assumptions C20_clean_stray_safe.

(* Prune (second clause): only directories that are empty and old enough go *)
From STS Require Import Model.Prune Proofs.PruneP.

Theorem C20_prune_removes_only_old_dirs : forall t n,
  In n t -> ~ In n (prune t) -> pn_dir n = true /\ pn_old n = true.
Proof. intros t n Hin Hn. apply (prune_spec t n Hin) in Hn. tauto. Qed.
Print Assumptions C20_prune_removes_only_old_dirs.

Theorem C20_prune_keeps_files_and_young : forall t n,
  In n t -> (pn_dir n = false \/ pn_old n = false) -> In n (prune t).
Proof.
  intros t n Hin Hk. unfold prune. apply filter_In. split; [exact Hin|].
  apply negb_true_iff, not_true_iff_false. intros R.
  apply removable_dir_old in R as [A B]. destruct Hk; congruence.
Qed.
Print Assumptions C20_prune_keeps_files_and_young.

(* nothing that stays lies directly inside a directory that went: a removed directory was empty *)
Theorem C20_prune_leaves_no_orphans : forall t d c,
  In d t -> ~ In d (prune t) -> In c t -> child_path (pn_path d) (pn_path c) = true -> ~ In c (prune t).
Proof. intros t d c Hd Hn. apply (prune_spec t d Hd) in Hn. apply Hn. Qed.
Print Assumptions C20_prune_leaves_no_orphans.

(* exact characterisation, for every tree *)
Theorem C20_prune_spec : forall t d, In d t ->
  (~ In d (prune t) <->
   pn_dir d = true /\ pn_old d = true /\
   forall c, In c t -> child_path (pn_path d) (pn_path c) = true -> ~ In c (prune t)).
Proof. exact prune_spec. Qed.
Print Assumptions C20_prune_spec.

(* the recursion bound of the model never decides the answer *)
Theorem C20_prune_fuel_sufficient : forall t d k,
  removable (prune_fuel t + k) t d = removable (prune_fuel t) t d.
Proof. intros t d k. apply removable_enough; unfold prune_fuel; Lia.lia. Qed.
Print Assumptions C20_prune_fuel_sufficient.

(* non-vacuity: a young directory holding an old empty one keeps only itself; an old chain collapses *)
Example C20_prune_example :
  prune [mkpnode [[1]] true false; mkpnode [[1]; [2]] true true] = [mkpnode [[1]] true false] /\
  prune [mkpnode [[1]] true true; mkpnode [[1]; [2]] true true; mkpnode [[3]] true true; mkpnode [[3]; [4]] false true]
    = [mkpnode [[3]] true true; mkpnode [[3]; [4]] false true].
Proof. vm_compute. split; reflexivity. Qed.
Print Assumptions C20_prune_example.
