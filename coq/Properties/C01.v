(* C01 - only hash-validated, byte-identical files reach the final directory. *)
From Coq Require Import List ZArith Bool.
From STS Require Import Model.Ranges Model.Queue Model.LogM Model.Stage Proofs.StageP.
Import ListNotations.
Open Scope Z_scope.

Section C01.
Variable H : list Z -> name.          (* MD5 *)
Variable ver : name -> name.          (* the hash announced for each name *)

(* For EVERY history of receiver operations - any grouping and order of parts,
   duplicates and retransmissions, bytes flipped in transit, short or failing
   readers, overwritten partials and complete-but-unvalidated files, queries,
   cleaning, timer firings, restarts at quiescence - in which each name is
   announced with one hash (D), every file in the final directory hashes to the
   hash announced for its name, and that hash is the one in its log record. *)
Theorem C01_delivered_valid_on_D : forall ops t body,
  Forall (op_in_D H ver) ops ->
  In (t, body) (finals (srun H init_stage ops)) ->
  exists r, In r (rlog (srun H init_stage ops)) /\ rec_target r = t /\
            H body = l_hash r /\ l_hash r = ver (l_name r).
Proof. exact (delivered_valid_on_D H ver). Qed.

(* with a collision-free hash the delivered bytes ARE an announced version *)
Corollary C01_byte_identical_on_D : forall (content : name -> list Z) ops t body,
  (forall n, H (content n) = ver n) ->
  (forall a b, H a = H b -> a = b) ->            (* md5_collision_free, a premise *)
  Forall (op_in_D H ver) ops ->
  In (t, body) (finals (srun H init_stage ops)) ->
  exists r, In r (rlog (srun H init_stage ops)) /\ rec_target r = t /\ body = content (l_name r).
Proof.
  intros content ops t body Hc Hinj HD Hin.
  destruct (delivered_valid_on_D H ver ops t body HD Hin) as [r [R1 [R2 [R3 R4]]]].
  exists r. repeat split; auto. apply Hinj. rewrite R3, R4, Hc. reflexivity.
Qed.

(* validation itself, unconditionally: a body becomes a held (.wait) body only
   if it hashes to the announced hash of the object being validated ... *)
Theorem C01_validation_checks_hash : forall s o n b,
  In (n, b) (waits (process H s o)) ->
  In (n, b) (waits s) \/
  (exists f, nth_error (heap s) o = Some f /\ n = f_name f /\ H b = f_hash f /\ In (n, b) (fulls s)).
Proof using H.
  intros s o n b Hin. unfold process in Hin. destruct (nth_error (heap s) o) as [f|] eqn:N; [|auto].
  destruct (negb _); [auto|].
  (* rewritten, not computed: the kernel would check [waits (set_fq _ x)] against [waits x] by
     comparing [set_fq _ x] with [x] first, and [x] is a chain of setters *)
  assert (Q : forall v x, waits (set_fq v x) = waits x) by reflexivity.
  destruct (alookup _ (fulls _)) as [body|] eqn:L; [destruct (name_eqb (H body) (f_hash f)) eqn:E|];
    rewrite ?Q, (to_cache_proj waits) in Hin by reflexivity; auto.
  apply aset_in in Hin as [[= -> ->]|Hin]; [right; exists f | auto].
  repeat split; [apply QueueP.name_eqb_eq, E | apply alookup_in, L].
Qed.

(* ... content that does not match is reported failed, nothing is delivered *)
Theorem C01_mismatch_reported_failed : forall s o f body,
  nth_error (heap s) o = Some f ->
  cache_state (lock (f_name f) s) (f_name f) = ST_RECEIVED ->
  alookup (f_name f) (fulls s) = Some body -> H body <> f_hash f ->
  process H s o = to_cache (lock (f_name f) s) o ST_FAILED.
Proof using H.
  intros s o f body N C L Hne. unfold process. rewrite N, C.
  change (fulls (lock (f_name f) s)) with (fulls s). rewrite L.
  destruct (name_eqb (H body) (f_hash f)) eqn:E; [apply QueueP.name_eqb_eq in E; contradiction | reflexivity].
Qed.

Theorem C01_validation_delivers_nothing : forall s o,
  finals (process H s o) = finals s /\ rlog (process H s o) = rlog s.
Proof using H.
  intros s o. split; apply process_proj; try reflexivity; intros; apply to_cache_proj; reflexivity.
Qed.

(* across a restart, with several versions of a name around: Recover hands a held
   (.wait) body to finalisation under the identity written in the companion only if
   the body hashes to that companion's hash (fix "Recover checks the held file
   against its companion"); otherwise nothing is put away for this companion *)
Theorem C01_recover_finalizes_only_checked : forall s fin val n c s' fin' val',
  recover_one H (s, fin, val) (n, c) = (s', fin', val') -> fin' <> fin ->
  exists b, alookup n (waits s) = Some b /\ H b = c_hash c /\ waits s' = waits s.
Proof using H.
  intros s fin val n c s' fin' val' R Hne. unfold recover_one in R.
  destruct (alookup n (waits s)) as [b|]; [destruct (name_eqb (H b) (c_hash c)) eqn:E|].
  - injection R as <- <- <-. exists b. split; [|split]; auto. apply QueueP.name_eqb_eq, E.
  - pose proof (recover_rest_keeps_data (set_waits (aremove n (waits s)) s) fin val n c) as K.
    rewrite R in K. destruct K as [K _]. contradiction.
  - pose proof (recover_rest_keeps_data s fin val n c) as K. rewrite R in K. destruct K as [K _]. contradiction.
Qed.

End C01.
Print Assumptions C01_delivered_valid_on_D.
Print Assumptions C01_byte_identical_on_D.
Print Assumptions C01_validation_checks_hash.
Print Assumptions C01_mismatch_reported_failed.
Print Assumptions C01_validation_delivers_nothing.
Print Assumptions C01_recover_finalizes_only_checked.

(* Outside D (several versions of one name) the invariant is not proved. The
   history stale_ops (Proofs/StageP.v) - version 1 validated and held for a
   missing predecessor, version 2 arrives and validates, the predecessor arrives -
   used to deliver version 2's bytes under version 1's hash (former finding
   C01-F1); after the fix (the newer object replaces the waiter, finalisation
   checks the hash of the cache entry) every delivered file of that history
   carries the hash of its own log record *)
Theorem C01_stale_waiter_repaired :
  forall t body, In (t, body) (finals stale_end) ->
    exists r, In r (rlog stale_end) /\ rec_target r = t /\ toyH body = l_hash r.
Proof.
  intros t body Hin. rewrite stale_finals in Hin. rewrite stale_log.
  destruct Hin as [[= <- <-]|[[= <- <-]|[]]].
  - exists (mklr [113] [] [9] 1 1000). simpl; auto.
  - exists (mklr [120] [] [2; 2] 2 1000). simpl; auto.
Qed.
Print Assumptions C01_stale_waiter_repaired.
