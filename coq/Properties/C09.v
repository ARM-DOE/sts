(* C09 - the receiver's record of partly received files is sound. *)
From Coq Require Import List ZArith Bool.
From STS Require Import Model.Ranges Proofs.RangesP.
Import ListNotations.
Open Scope Z_scope.

(* A file is treated as complete only when the recorded ranges cover it from
   the first to the last byte - for EVERY record, in any order, with any
   overlaps. *)
Theorem C09_complete_only_if_covered : forall ps size,
  complete ps size = true -> forall i, 0 <= i < size -> covered ps i.
Proof.
  intros [|[pb pe] rest] size Hc i Hi; [discriminate|].
  apply complete_cons in Hc as (-> & <- & Hg). apply (no_gap_covers _ 0); auto.
Qed.
Print Assumptions C09_complete_only_if_covered.

(* Whatever parts arrive (disjoint, adjacent, identical, nested, overlapping,
   empty, inverted; any order), the record never claims a byte that was not
   in an acknowledged part. *)
Theorem C09_record_claims_only_received : forall parts ps i,
  covered (add_all ps parts) i -> covered ps i \/ covered parts i.
Proof.
  intros parts ps i H. apply covered_app. revert H. apply covered_incl.
  intros q Hq. apply in_or_app, add_all_in, Hq.
Qed.
Print Assumptions C09_record_claims_only_received.

(* On D (each part non-empty and disjoint from or identical to every earlier
   part - the discipline C11 proves of the sender): the record stays sorted and
   disjoint and claims EXACTLY the union of the acknowledged parts: nothing
   acknowledged is ever dropped. *)
Theorem C09_record_exact_on_D : forall parts,
  discipline [] parts ->
  sorted_disjoint_b (add_all [] parts) = true /\
  (forall i, covered (add_all [] parts) i <-> covered parts i).
Proof.
  intros parts Hd. destruct (record_exact parts [] eq_refl Hd) as [Hs Hk].
  split; [exact Hs|]. intros i; split; apply covered_incl; intros q Hq; [|auto].
  destruct (add_all_in _ _ _ Hq) as [[]|H]; exact H.
Qed.
Print Assumptions C09_record_exact_on_D.

(* "how many of these parts did you receive": a positive answer is sound for
   every sorted, disjoint record (all records reachable on D). *)
Theorem C09_exists_sound_on_D : forall ps b e,
  sorted_disjoint_b ps = true -> part_exists ps b e = true ->
  forall i, b <= i < e -> covered ps i.
Proof.
  intros ps b e Hs He i Hi. apply part_exists_aux_overlap in He.
  destruct ps as [|[pb pe] r]; [simpl in He; Lia.lia|].
  apply (overlap_full _ (Z.min b pb) b e Hs (Z.le_min_r b pb)); Lia.lia.
Qed.
Print Assumptions C09_exists_sound_on_D.

(* Full statement refuted outside D - these are the recorded findings. *)
Theorem C09_exists_overlap_refuted :
  exists parts b e i,
    part_exists (add_all [] parts) b e = true /\ b <= i < e /\
    ~ covered (add_all [] parts) i.
Proof.
  exists [(0, 4); (4, 8); (2, 6)], 3, 10, 8.
  split; [vm_compute; reflexivity|]. split; [Lia.lia|].
  rewrite <- covered_b_spec. vm_compute. discriminate.
Qed.
Print Assumptions C09_exists_overlap_refuted.

Theorem C09_retention_overlap_refuted :
  exists ps b e i, covered ps i /\ ~ covered (add_part ps b e) i.
Proof.
  exists [(0, 8)], 5, 10, 2. rewrite <- !covered_b_spec. vm_compute. split; [reflexivity | discriminate].
Qed.
Print Assumptions C09_retention_overlap_refuted.

(* the answer to "how many of these parts did you receive" (stage/local.go Received) *)
From STS Require Import Model.Queue Model.Stage Proofs.StageP.

(* it is the length of the leading run of parts on record: it stops at the first part
   that is not, whatever lies behind it *)
Theorem C09_received_counts_leading_run : forall ps s now,
  counted s now ps (snd (received_q s now ps)).
Proof.
  induction ps as [|p r IH]; intros s now; [constructor|].
  cbn [received_q]. specialize (IH (fst (part_received s now p)) now).
  destruct (part_received s now p) as [s1 []] eqn:E; cbn [fst snd] in *.
  - destruct (received_q s1 now r) as [s2 k]. apply counted_more; rewrite E; auto.
  - apply counted_stop. rewrite E. reflexivity.
Qed.
Print Assumptions C09_received_counts_leading_run.

(* and a part counts only when the companion of exactly that version records the range
   (soundness of that look-up: C09_exists_sound_on_D) or the file is known completely
   received, validated, held or put away as that version - never "failed" *)
Theorem C09_counted_part_is_on_record : forall s now p,
  snd (part_received s now p) = true ->
  let monthago := now - 30 * 86400 in
  let when := if now <? p_time p then now else if p_time p <? monthago then monthago else p_time p in
  let s0 := lock (p_name p) (build_cache s now when) in
  (cache_obj s0 (p_name p) = None /\
   exists c, alookup (p_name p) (cmps s0) = Some c /\
     name_eqb (p_renamed p) (c_renamed c) = true /\ name_eqb (p_hash p) (c_hash c) = true /\
     name_eqb (p_prev p) (c_prev c) = true /\
     part_exists (c_parts c) (p_beg p) (p_end p) = true) \/
  (exists o, cache_obj s0 (p_name p) = Some o /\
     (f_state (obj s0 o) =? ST_FAILED) = false /\
     name_eqb (f_hash (obj s0 o)) (p_hash p) = true /\
     name_eqb (f_renamed (obj s0 o)) (p_renamed p) = true).
Proof.
  intros s now p Hc. cbv zeta. unfold part_received in Hc.
  set (s0 := lock (p_name p) _) in *.
  destruct (cache_obj s0 (p_name p)) as [o|]; [right; exists o | left]; (split; [reflexivity|]).
  - destruct (f_state (obj s0 o) =? ST_FAILED), (name_eqb (f_hash (obj s0 o)) (p_hash p)),
      (name_eqb (f_renamed (obj s0 o)) (p_renamed p)); try discriminate Hc. auto.
  - destruct (alookup (p_name p) (cmps s0)) as [c|]; [exists c | discriminate Hc]. split; [reflexivity|].
    destruct (name_eqb (p_renamed p) (c_renamed c)), (name_eqb (p_hash p) (c_hash c)),
      (name_eqb (p_prev p) (c_prev c)); try discriminate Hc. auto.
Qed.
Print Assumptions C09_counted_part_is_on_record.
