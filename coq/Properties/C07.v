(* C07 - a sender crash at any point loses nothing and re-sends only what is
   missing. *)
From Coq Require Import List ZArith Bool.
From STS Require Import Model.Ranges Model.Chunk Model.Sender Proofs.RangesP Proofs.ChunkP Proofs.SenderP.
Import ListNotations.
Open Scope Z_scope.

(* the restart plan sends ranges only for a file that is not done, unchanged and
   partly received - and then exactly the ranges computed as missing *)
Theorem C07_resume_sends_only_missing : forall done ign van chg hh m rs,
  recover_decide done ign van chg hh m = PSendRanges rs -> m = Some rs /\ rs <> [] /\ done = false /\ chg = false.
Proof.
  intros done ign van chg hh m rs. unfold recover_decide.
  destruct done, ign, van, chg, hh, m as [[|r l]|]; try discriminate.
  intros [= <-]. repeat split; discriminate.
Qed.
Print Assumptions C07_resume_sends_only_missing.

(* ... and the missing ranges are exactly the bytes the receiver does not list
   as held (for a record that is disjoint and inside the file) *)
Theorem C07_missing_is_complement_of_listing : forall ps size,
  0 <= size ->
  sorted_disjoint_b (sort_ranges ps) = true ->
  lower_bounded 0 (sort_ranges ps) ->
  (forall i, covered ps i -> i < size) ->
  forall i, covered (missing ps size) i <-> (0 <= i < size /\ ~ covered ps i).
Proof. exact missing_complement. Qed.
Print Assumptions C07_missing_is_complement_of_listing.

(* no file that is still unconfirmed (not done, present, unchanged, hashed) is
   forgotten: it is either resumed or polled *)
Theorem C07_unconfirmed_never_forgotten : forall ign van chg hh m,
  ign = false -> van = false -> chg = false -> hh = true ->
  recover_decide false ign van chg hh m <> PSkip /\ recover_decide false ign van chg hh m <> PMarkDone.
Proof.
  intros ign van chg hh m -> -> -> ->. destruct m as [[|r l]|]; split; discriminate.
Qed.
Print Assumptions C07_unconfirmed_never_forgotten.

(* ... and none is finished (and deleted) at restart without a positive answer *)
Theorem C07_restart_releases_only_confirmed : forall code,
  recover_after_poll code = QFinishAndPlaceholder -> code = POLL_WAITING \/ code = POLL_PASSED.
Proof. exact recover_poll_never_releases_on_negative. Qed.
Print Assumptions C07_restart_releases_only_confirmed.

(* the persisted queue cache (cache/local.go): what a restarted sender starts from *)
From STS Require Import Model.Cache Proofs.CacheP.

(* after any history of cache operations (adds, confirmations, resets, removals, writes,
   earlier restarts): writing the cache and restarting loses nothing - every entry with
   every field, the store's private data included *)
Theorem C07_persisted_cache_is_what_restart_finds : forall ops,
  let c := crun empty_cache ops in
  c_mem (crestart (cpersist c)) = c_mem c.
Proof.
  intros ops c. assert (I : clean_inv c) by (apply clean_inv_run; unfold clean_inv; reflexivity).
  unfold cpersist, crestart. destruct (c_dirty c) eqn:D; cbn [c_disk c_mem]; [reflexivity|].
  apply I. exact D.
Qed.
Print Assumptions C07_persisted_cache_is_what_restart_finds.

(* a crash between two writes: the file on disk is the one written last, whatever
   happened in memory since *)
Theorem C07_cache_file_changes_only_when_written : forall c op,
  op <> CPersist -> c_disk (cstep c op) = c_disk c.
Proof.
  intros c op Hne. destruct (cstep_cases c op) as [->|[->|[H _]]]; [congruence|reflexivity|exact H].
Qed.
Print Assumptions C07_cache_file_changes_only_when_written.
