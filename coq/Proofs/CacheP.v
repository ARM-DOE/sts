From Coq Require Import List ZArith Bool.
From STS Require Import Model.Queue Model.Cache Proofs.QueueP.
Import ListNotations.
Open Scope Z_scope.

Lemma cget_cset k v m k0 : cget k0 (cset k v m) = if name_eqb k k0 then Some v else cget k0 m.
Proof.
  induction m as [|[k' v'] r IH]; simpl; [reflexivity|].
  destruct (name_eqb_spec k' k) as [->|Hne]; simpl; [destruct (name_eqb k k0); reflexivity|].
  rewrite IH. destruct (name_eqb_spec k' k0), (name_eqb_spec k k0); try reflexivity; congruence.
Qed.

Lemma cget_cdel k m k0 : cget k0 (cdel k m) = if name_eqb k k0 then None else cget k0 m.
Proof.
  induction m as [|[k' v'] r IH]; simpl; [destruct (name_eqb k k0); reflexivity|].
  destruct (name_eqb_spec k' k) as [->|Hne]; simpl; rewrite IH; [destruct (name_eqb k k0); reflexivity|].
  destruct (name_eqb_spec k' k0), (name_eqb_spec k k0); try reflexivity; congruence.
Qed.

Lemma cget_cset_same k v m : cget k (cset k v m) = Some v.
Proof. rewrite cget_cset, name_eqb_refl. reflexivity. Qed.

Lemma cget_cset_other k k0 v m : k0 <> k -> cget k0 (cset k v m) = cget k0 m.
Proof. intros Hne. rewrite cget_cset. destruct (name_eqb_spec k k0); [congruence|reflexivity]. Qed.

Lemma cget_cdel_other k k0 m : k0 <> k -> cget k0 (cdel k m) = cget k0 m.
Proof. intros Hne. rewrite cget_cdel. destruct (name_eqb_spec k k0); [congruence|reflexivity]. Qed.

Lemma c_is_empty_true h : c_is_empty h = true <-> h = [].
Proof. destruct h; simpl; split; congruence. Qed.

Lemma c_other_version_false e size time hash :
  c_other_version e size time hash = false <->
  ce_size e = size /\ ce_time e = time /\ (hash = [] \/ ce_hash e = hash).
Proof.
  unfold c_other_version.
  rewrite !orb_false_iff, andb_false_iff, !negb_false_iff, !Z.eqb_eq, name_eqb_eq, c_is_empty_true.
  apply and_assoc.
Qed.

Theorem done_marks_only_done : forall c n e,
  cget n (c_mem c) = Some e ->
  cget n (c_mem (cdone c n)) = Some (mkce (ce_size e) (ce_time e) (ce_meta e) (ce_hash e) true).
Proof.
  intros c n e G. unfold cdone. rewrite G. destruct (ce_done e) eqn:D.
  - rewrite G, <- D. destruct e; reflexivity.
  - apply cget_cset_same.
Qed.

Theorem done_other_untouched : forall c n n0, n0 <> n -> cget n0 (c_mem (cdone c n)) = cget n0 (c_mem c).
Proof.
  intros c n n0 Hne. unfold cdone. destruct (cget n (c_mem c)) as [e|]; [|reflexivity].
  destruct (ce_done e); [reflexivity|]. apply cget_cset_other. assumption.
Qed.

Theorem remove_forgets : forall c n, cget n (c_mem (cremove c n)) = None.
Proof.
  intros c n. unfold cremove. destruct (cget n (c_mem c)) eqn:G; [|exact G].
  cbn [c_mem]. rewrite cget_cdel, name_eqb_refl. reflexivity.
Qed.

Lemma cstep_cases c op :
  op = CPersist \/ op = CRestart \/
  c_disk (cstep c op) = c_disk c /\ (cstep c op = c \/ c_dirty (cstep c op) = true).
Proof.
  destruct op; auto; right; right; cbn [cstep]; unfold cadd, cdone, creset, cremove;
    try destruct (cget n (c_mem c)) as [e|]; try destruct (ce_done e); auto.
Qed.

(* the disk never runs ahead of memory: clean => disk = mem *)
Definition clean_inv (c : cache) : Prop := c_dirty c = false -> c_disk c = c_mem c.

Lemma clean_inv_step c op : clean_inv c -> clean_inv (cstep c op).
Proof.
  intros I. destruct (cstep_cases c op) as [->|[->|[_ [->|H]]]]; [|intros _; reflexivity|exact I|intros D; congruence].
  unfold cstep, cpersist, clean_inv. destruct (c_dirty c) eqn:D; [reflexivity | exact I].
Qed.

Theorem clean_inv_run : forall ops c, clean_inv c -> clean_inv (crun c ops).
Proof.
  induction ops as [|op r IH]; intros c I; simpl; [exact I|]. apply IH. apply clean_inv_step. exact I.
Qed.
