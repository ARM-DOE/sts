From Coq Require Import List ZArith Bool Lia.
From STS Require Import Model.Wire Proofs.StringsP.
Import ListNotations.
Open Scope Z_scope.

Definition dstep (a c : Z) : Z := a * 10 + (c - 48).
Definition digit (c : Z) : Prop := is_digit c = true.

Lemma digit_range c : digit c <-> 48 <= c <= 57.
Proof. unfold digit, is_digit. rewrite andb_true_iff, !Z.leb_le. tauto. Qed.

(* the digits come out most significant first, in front of acc *)
Lemma dec_aux_spec : forall f n acc, (0 < f)%nat -> 0 <= n < 10 ^ Z.of_nat f ->
  exists d ds, dec_aux f n acc = d :: ds ++ acc /\ Forall digit (d :: ds) /\
               fold_left dstep (d :: ds) 0 = n.
Proof.
  induction f as [|f IH]; intros n acc Hf Hn; [lia|]. cbn [dec_aux].
  destruct (Z.ltb_spec n 10) as [E|E].
  - exists (48 + n), []. split; [reflexivity|split].
    + repeat constructor. apply digit_range. lia.
    + cbn [fold_left]. unfold dstep. lia.
  - assert (0 < f)%nat by (destruct f; [simpl in Hn|]; lia).
    rewrite Nat2Z.inj_succ, Z.pow_succ_r in Hn by lia.
    pose proof (Z.mod_pos_bound n 10). pose proof (Z.div_mod n 10).
    destruct (IH (n / 10) ((48 + n mod 10) :: acc)) as (d & ds & E1 & E2 & E3); [lia..|].
    exists d, (ds ++ [48 + n mod 10]). rewrite E1, <- app_assoc. repeat split.
    + rewrite app_comm_cons. apply Forall_app. split; auto. repeat constructor. apply digit_range. lia.
    + rewrite app_comm_cons, fold_left_app, E3. cbn [fold_left]. unfold dstep. lia.
Qed.

Lemma dec_nat_spec n : 0 <= n < LIM ->
  exists d ds, dec_nat n = d :: ds /\ Forall digit (d :: ds) /\ fold_left dstep (d :: ds) 0 = n.
Proof.
  intros Hn. destruct (dec_aux_spec DEC_FUEL n []) as (d & ds & E & H); [unfold DEC_FUEL; lia | unfold LIM in Hn; simpl; lia|].
  exists d, ds. rewrite app_nil_r in E. auto.
Qed.

Definition nodigit_head (rest : wbytes) : Prop :=
  match rest with [] => True | c :: _ => is_digit c = false end.

Lemma span_digits_app : forall ds acc k rest, Forall digit ds -> nodigit_head rest ->
  span_digits (ds ++ rest) acc k = (fold_left dstep ds acc, (k + length ds)%nat, rest).
Proof.
  induction ds as [|d ds IH]; intros acc k rest Hd Hr.
  - simpl. rewrite Nat.add_0_r. destruct rest as [|c r]; simpl in *; [|rewrite Hr]; reflexivity.
  - inversion Hd as [|x xs Hx Hxs]; subst. simpl. rewrite Hx, IH, Nat.add_succ_r by auto. reflexivity.
Qed.

Lemma parse_nat_dec : forall n rest,
  0 <= n < LIM -> nodigit_head rest -> parse_nat (dec_nat n ++ rest) = Some (n, rest).
Proof.
  intros n rest Hn Hr. destruct (dec_nat_spec n Hn) as (d & ds & -> & F & V).
  unfold parse_nat. rewrite span_digits_app, V by auto. reflexivity.
Qed.

Lemma int_ok_range z : int_ok z = true <-> - LIM < z < LIM.
Proof. unfold int_ok. rewrite andb_true_iff, !Z.ltb_lt. tauto. Qed.

Theorem parse_int_dec : forall z rest,
  int_ok z = true -> nodigit_head rest -> parse_int (dec z ++ rest) = Some (z, rest).
Proof.
  intros z rest Hz Hr. apply int_ok_range in Hz. unfold dec. destruct (Z.ltb_spec z 0) as [E|E].
  - simpl. rewrite parse_nat_dec, Z.opp_involutive by (auto; lia). reflexivity.
  - pose proof (parse_nat_dec z rest ltac:(lia) Hr) as P.
    destruct (dec_nat_spec z ltac:(lia)) as (d & ds & Ed & F & _). rewrite Ed in *.
    inversion F as [|x xs Hd _]; subst. apply digit_range in Hd. simpl.
    destruct (Z.eqb_spec d 45); [lia|exact P].
Qed.

Lemma unhex_hexd x : 0 <= x < 16 -> unhex (hexd x) = Some x.
Proof.
  intros H. unfold unhex, hexd, is_digit. destruct (Z.ltb_spec x 10).
  - rewrite (proj2 (Z.leb_le 48 _)), (proj2 (Z.leb_le _ 57)) by lia. cbn [andb]. f_equal. lia.
  - rewrite (proj2 (Z.leb_gt _ 57)), andb_false_r, (proj2 (Z.leb_le 97 _)), (proj2 (Z.leb_le _ 102)) by lia.
    cbn [andb]. f_equal. lia.
Qed.

(* bytes that stand for themselves inside a string literal *)
Definition literal (c : Z) : Prop := 32 <= c /\ c <> 34 /\ c <> 92.

Lemma unesc_literal a r acc : literal a -> unesc (a :: r) acc = unesc r (a :: acc).
Proof.
  intros (H1 & H2 & H3). cbn [unesc].
  rewrite (proj2 (Z.eqb_neq _ _) H2), (proj2 (Z.eqb_neq _ _) H3), (proj2 (Z.ltb_ge _ _) H1). reflexivity.
Qed.

(* one \uXXXX escape outside the surrogate range *)
Lemma unesc_u h1 h2 h3 h4 cp r acc :
  hex4 h1 h2 h3 h4 = Some cp -> cp < 55296 ->
  unesc (92 :: 117 :: h1 :: h2 :: h3 :: h4 :: r) acc = unesc r (rev (utf8 cp) ++ acc).
Proof.
  intros E H. cbn [unesc Z.eqb Pos.eqb]. rewrite E, (proj2 (Z.leb_gt _ _) H). reflexivity.
Qed.

Lemma unesc_u00 b r acc : 0 <= b < 128 -> unesc (u00 b ++ r) acc = unesc r (b :: acc).
Proof.
  intros Hb. unfold u00. cbn [app]. rewrite (unesc_u _ _ _ _ b); [| |lia].
  - unfold utf8. rewrite (proj2 (Z.ltb_lt _ _)) by lia. reflexivity.
  - unfold hex4. change (unhex 48) with (Some 0).
    pose proof (Z.mod_pos_bound b 16). pose proof (Z.div_mod b 16).
    rewrite !unhex_hexd by lia. f_equal. lia.
Qed.

Lemma unesc_ls : forall c r acc, c = 168 \/ c = 169 ->
  unesc ([92; 117; 50; 48; 50; hexd (c - 160)] ++ r) acc = unesc r (c :: 128 :: 226 :: acc).
Proof. intros c r acc [->| ->]; reflexivity. Qed.

Lemma unesc_esc1 : forall a r acc, 0 <= a ->
  unesc (esc1 a ++ r) acc = unesc r (a :: acc).
Proof.
  intros a r acc Ha. unfold esc1.
  (* the two-character escapes: each is read back by evaluation *)
  repeat match goal with |- context [if ?x =? ?y then _ else _] =>
    destruct (Z.eqb_spec x y) as [->|]; [reflexivity|] end.
  destruct ((a <? 32) || (a =? 60) || (a =? 62) || (a =? 38)) eqn:EU.
  - apply unesc_u00. lia.
  - rewrite !orb_false_iff, Z.ltb_ge in EU. apply unesc_literal. unfold literal. tauto.
Qed.

Lemma esc_cons : forall a t,
  esc (a :: t) =
  match t with
  | b :: c :: r => if is_ls a b c then [92; 117; 50; 48; 50; hexd (c - 160)] ++ esc r else esc1 a ++ esc t
  | _ => esc1 a ++ esc t
  end.
Proof. reflexivity. Qed.

Lemma str_ok_cons a t : str_ok (a :: t) = true <-> 0 <= a < 256 /\ str_ok t = true.
Proof. unfold str_ok, byte_ok. cbn [forallb]. rewrite !andb_true_iff, Z.leb_le, Z.ltb_lt. tauto. Qed.

(* the round trip of string contents, for every byte string; esc looks three
   bytes ahead, hence the induction on a bound of the length *)
Lemma unesc_esc_len : forall n s acc rest, (length s <= n)%nat -> str_ok s = true ->
  unesc (esc s ++ 34 :: rest) acc = Some (rev acc ++ s, rest).
Proof.
  induction n as [|n IH]; intros [|a t] acc rest Hl Hs; simpl in Hl; try lia;
    try (rewrite app_nil_r; reflexivity).
  apply str_ok_cons in Hs as [Ha Ht].
  assert (Step : unesc ((esc1 a ++ esc t) ++ 34 :: rest) acc = Some (rev acc ++ a :: t, rest)).
  { rewrite <- app_assoc, unesc_esc1, IH by (auto; lia). simpl. rewrite <- app_assoc. reflexivity. }
  rewrite esc_cons. destruct t as [|b [|c r]]; try exact Step.
  destruct (is_ls a b c) eqn:E; [|exact Step].
  apply str_ok_cons in Ht as [_ Ht]. apply str_ok_cons in Ht as [_ Hr].
  unfold is_ls in E. rewrite !andb_true_iff, !Z.eqb_eq in E. destruct E as [[-> ->] Hc].
  rewrite <- app_assoc, unesc_ls, IH by (auto; simpl in Hl; lia). simpl. rewrite <- !app_assoc. reflexivity.
Qed.

Theorem parse_str_enc : forall s rest, str_ok s = true ->
  parse_str (enc_str s ++ rest) = Some (s, rest).
Proof.
  intros s rest Hs. unfold enc_str, parse_str. simpl. rewrite <- app_assoc.
  apply (unesc_esc_len (length s) s [] rest); auto.
Qed.

(* the time field is not escaped by the sender: it is made of literal bytes *)
Lemma unesc_literals : forall s acc rest, Forall literal s ->
  unesc (s ++ 34 :: rest) acc = Some (rev acc ++ s, rest).
Proof.
  induction s as [|a s IH]; intros acc rest H; [simpl; rewrite app_nil_r; reflexivity|].
  inversion H. simpl app. rewrite unesc_literal, IH by auto. simpl. rewrite <- app_assoc. reflexivity.
Qed.

Lemma dec_literal z : int_ok z = true -> Forall literal (dec z).
Proof.
  intros Hz. apply int_ok_range in Hz.
  assert (D : forall n, 0 <= n < LIM -> Forall literal (dec_nat n)).
  { intros n Hn. destruct (dec_nat_spec n Hn) as (d & ds & -> & F & _).
    eapply Forall_impl; [|exact F]. intros c Hc. apply digit_range in Hc. unfold literal. lia. }
  unfold dec. destruct (Z.ltb_spec z 0).
  - constructor; [unfold literal; lia | apply D; lia].
  - apply D; lia.
Qed.

Lemma eat_app : forall p s, eat p (p ++ s) = Some s.
Proof. induction p as [|x p IH]; intros s; simpl; [reflexivity|]. rewrite Z.eqb_refl. apply IH. Qed.

Lemma eat_key c k s : eat (c :: key k) (c :: key k ++ s) = Some s.
Proof. apply (eat_app (c :: key k)). Qed.

Lemma parse_time_enc : forall sec nsec, int_ok sec = true -> int_ok nsec = true ->
  parse_time (dec sec ++ 43 :: dec nsec) = Some (sec, nsec).
Proof.
  intros sec nsec H1 H2. unfold parse_time.
  rewrite (parse_int_dec sec (43 :: dec nsec)) by (auto; reflexivity).
  rewrite <- (app_nil_r (dec nsec)), parse_int_dec by (auto; exact I). reflexivity.
Qed.

Lemma parse_str_time : forall sec nsec rest, int_ok sec = true -> int_ok nsec = true ->
  parse_str (enc_time sec nsec ++ rest) = Some (dec sec ++ 43 :: dec nsec, rest).
Proof.
  intros sec nsec rest H1 H2. unfold enc_time, parse_str. cbn [app].
  repeat (rewrite <- app_assoc || rewrite <- app_comm_cons). cbn [app]. rewrite app_comm_cons, app_assoc.
  apply unesc_literals, Forall_app. split; [|constructor; [unfold literal; lia|]]; apply dec_literal; auto.
Qed.

Lemma desc_ok_fields d : desc_ok d = true ->
  str_ok (d_name d) = true /\ str_ok (d_ren d) = true /\ str_ok (d_prev d) = true /\ str_ok (d_hash d) = true /\
  int_ok (d_sec d) = true /\ int_ok (d_nsec d) = true /\ int_ok (d_size d) = true /\ int_ok (d_beg d) = true /\ int_ok (d_end d) = true.
Proof. unfold desc_ok. intros H. repeat (apply andb_true_iff in H as [H ?]). tauto. Qed.

Theorem parse_desc_enc : forall d rest, desc_ok d = true ->
  parse_desc (enc_desc d ++ rest) = Some (d, rest).
Proof.
  intros d rest Hd. apply desc_ok_fields in Hd as (H1 & H2 & H3 & H4 & H5 & H6 & H7 & H8 & H9).
  (* reassociated before parse_desc is unfolded: these rewrites then work on a small term *)
  unfold enc_desc. repeat (rewrite <- app_assoc || rewrite <- app_comm_cons). unfold parse_desc.
  (* each field in turn: its key, then its value *)
  do 4 rewrite eat_key, parse_str_enc by auto.
  rewrite eat_key, parse_str_time, parse_time_enc by auto.
  do 3 rewrite eat_key, parse_int_dec by (auto; reflexivity).
  destruct d; reflexivity.
Qed.

Definition descs_ok (ds : list desc) : Prop := Forall (fun d => desc_ok d = true) ds.

Lemma enc_descs_cons d r :
  enc_descs (d :: r) = enc_desc d ++ match r with [] => [] | _ => 44 :: enc_descs r end.
Proof. destruct r; [rewrite app_nil_r|]; reflexivity. Qed.

Lemma parse_descs_enc : forall ds fuel rest, descs_ok ds -> ds <> [] -> (length ds <= fuel)%nat ->
  parse_descs fuel (enc_descs ds ++ 93 :: rest) = Some (ds, rest).
Proof.
  induction ds as [|d r IH]; intros fuel rest Hok Hne Hf; [congruence|].
  inversion Hok as [|x xs Hd Hr]; subst.
  destruct fuel as [|f]; simpl in Hf; [lia|]. cbn [parse_descs].
  rewrite enc_descs_cons, <- app_assoc, parse_desc_enc by auto.
  destruct r; [reflexivity|]. cbn [app]. rewrite IH by (auto; discriminate || lia). reflexivity.
Qed.

Lemma enc_descs_head d r : exists t, enc_descs (d :: r) = 123 :: t.
Proof. rewrite enc_descs_cons. unfold enc_desc. eexists. reflexivity. Qed.

Lemma enc_descs_length : forall ds, (length ds <= length (enc_descs ds))%nat.
Proof.
  induction ds as [|d r IH]; [simpl; lia|]. rewrite enc_descs_cons, app_length.
  unfold enc_desc at 1. destruct r; cbn [length] in *; lia.
Qed.

(* C13: the header decodes to exactly the descriptors that were encoded *)
Theorem parse_header_enc : forall ds, descs_ok ds -> parse_header (enc_header ds) = Some (ds, []).
Proof.
  intros [|d r] Hok; [reflexivity|]. unfold enc_header, parse_header.
  destruct (enc_descs_head d r) as [t E]. rewrite E. cbn [app]. rewrite app_comm_cons, <- E.
  apply parse_descs_enc; auto; [discriminate|].
  rewrite app_length. pose proof (enc_descs_length (d :: r)). lia.
Qed.

Lemma firstn_add {A} : forall a b (l : list A), firstn (a + b) l = firstn a l ++ firstn b (skipn a l).
Proof.
  induction a as [|a IH]; intros b l; [reflexivity|].
  destruct l as [|x l]; simpl; [rewrite firstn_nil; reflexivity|]. rewrite IH. reflexivity.
Qed.

Lemma skipn_add {A} : forall a b (l : list A), skipn (a + b) l = skipn b (skipn a l).
Proof.
  induction a as [|a IH]; intros b l; [reflexivity|].
  destruct l as [|x l]; simpl; [rewrite skipn_nil; reflexivity|]. apply IH.
Qed.

Definition grants_ok (g : nat -> nat) : Prop := forall i, (1 <= g i)%nat.

(* one read hands out k bytes, k the least of what is left of the part, the
   buffer, the grant and the stream *)
Lemma pd_read_spec total pos stream req grant :
  let k := Nat.min (Nat.min (Nat.min (total - pos) req) grant) (length stream) in
  pd_read total pos stream req grant =
  (firstn k stream, (pos + k)%nat, skipn k stream,
   (pos + k =? total)%nat || (length stream =? 0)%nat).
Proof.
  unfold pd_read. set (want := Nat.min (Nat.min (total - pos) req) grant).
  replace (match stream with [] => true | _ => false end) with (length stream =? 0)%nat by (destruct stream; reflexivity).
  rewrite firstn_length. destruct (Nat.min_spec want (length stream)) as [[_ ->]|[H ->]]; [reflexivity|].
  rewrite (firstn_all2 stream H), firstn_all. reflexivity.
Qed.

(* all that the consumer's loop needs to know of one read: it hands out k bytes, no
   more than are left of the part and of the stream; it signals the end when one
   of the two is used up, and has made progress when it does not *)
Lemma pd_read_bounds total pos stream req grant : (1 <= req)%nat -> (1 <= grant)%nat -> (pos <= total)%nat ->
  exists k fin, pd_read total pos stream req grant = (firstn k stream, (pos + k)%nat, skipn k stream, fin) /\
    (k <= total - pos)%nat /\ (k <= length stream)%nat /\
    (fin = true /\ ((pos + k)%nat = total \/ length stream = 0%nat) \/ fin = false /\ (1 <= k)%nat).
Proof.
  intros Hreq Hgrant Hpos. eexists _, _. split; [apply pd_read_spec|].
  split; [lia|]. split; [lia|]. destruct (_ || _) eqn:Fin; [left|right].
  - apply orb_true_iff in Fin. rewrite !Nat.eqb_eq in Fin. auto.
  - apply orb_false_iff in Fin. rewrite !Nat.eqb_neq in Fin. split; [reflexivity|lia].
Qed.

Lemma copy_part_spec : forall fuel total pos stream req g i acc,
  (1 <= req)%nat -> grants_ok g -> (pos <= total)%nat -> (total - pos < fuel)%nat ->
  let m := Nat.min (total - pos) (length stream) in
  copy_part fuel total pos stream req g i acc = (acc ++ firstn m stream, (pos + m)%nat, skipn m stream).
Proof.
  induction fuel as [|f IH]; intros total pos stream req g i acc Hreq Hg Hpos Hfuel m; [lia|]. cbn [copy_part].
  destruct (pd_read_bounds total pos stream req (g i) Hreq (Hg i) Hpos)
    as (k & fin & -> & Hk1 & Hk2 & [[-> Hend]|[-> Hk3]]).
  - replace m with k; [reflexivity|lia].
  - rewrite IH by (auto; lia). rewrite skipn_length.
    replace m with (k + Nat.min (total - (pos + k)) (length stream - k))%nat by lia.
    rewrite firstn_add, skipn_add, app_assoc, Nat.add_assoc. reflexivity.
Qed.

(* C13: however the stream is chunked and whatever the buffer size of the
   consumer, the parts are cut exactly at the announced lengths *)
Theorem decode_body_spec : forall ds stream req g,
  (1 <= req)%nat -> grants_ok g -> decode_body ds stream req g = split_spec ds stream.
Proof.
  induction ds as [|d r IH]; intros stream req g Hreq Hg; [reflexivity|].
  cbn [decode_body split_spec].
  rewrite copy_part_spec by (auto; lia). rewrite Nat.sub_0_r. cbn [Nat.add app].
  destruct (Nat.leb_spec (part_len d) (length stream)) as [Hle|Hgt].
  - rewrite Nat.min_l by lia. rewrite Nat.eqb_refl. rewrite IH by auto. reflexivity.
  - rewrite Nat.min_r by lia. destruct (Nat.eqb_spec (length stream) (part_len d)) as [E|_]; [lia|].
    rewrite firstn_all. reflexivity.
Qed.

Definition lens_ok (ds : list desc) (bodies : list wbytes) : Prop :=
  Forall2 (fun d b => length b = part_len d) ds bodies.

Definition complete_parts (ds : list desc) (bodies : list wbytes) : list (desc * wbytes * bool) :=
  map (fun db => (fst db, snd db, true)) (combine ds bodies).

Lemma split_spec_full d ds b s : length b = part_len d ->
  split_spec (d :: ds) (b ++ s) = (d, b, true) :: split_spec ds s.
Proof.
  intros H. cbn [split_spec]. rewrite <- H, firstn_prefix, skipn_prefix, app_length.
  rewrite (proj2 (Nat.leb_le _ _)) by lia. reflexivity.
Qed.

Lemma split_spec_short d ds s : (length s < part_len d)%nat -> split_spec (d :: ds) s = [(d, s, false)].
Proof. intros H. cbn [split_spec]. rewrite (proj2 (Nat.leb_gt _ _)) by lia. reflexivity. Qed.

Theorem split_roundtrip : forall ds bodies, lens_ok ds bodies ->
  split_spec ds (concat bodies) = complete_parts ds bodies.
Proof.
  intros ds bodies H. induction H as [|d b ds bs Hl _ IH]; [reflexivity|].
  cbn [concat]. rewrite split_spec_full, IH by auto. reflexivity.
Qed.

(* what arrives of a stream that ends early: the parts that arrived in full, then
   ONE part flagged short holding a strict prefix of its own bytes, then nothing *)
Theorem split_truncated : forall ds bodies k, lens_ok ds bodies ->
  (k < length (concat bodies))%nat ->
  exists j d b rest,
    nth_error ds j = Some d /\ nth_error bodies j = Some b /\
    b = firstn (k - length (concat (firstn j bodies))) b ++ rest /\ rest <> [] /\
    split_spec ds (firstn k (concat bodies)) =
      complete_parts (firstn j ds) (firstn j bodies) ++
      [(d, firstn (k - length (concat (firstn j bodies))) b, false)].
Proof.
  intros ds bodies k H. revert k. induction H as [|d b ds bs Hl _ IH]; intros k Hk; [simpl in Hk; lia|].
  cbn [concat] in *. rewrite app_length in Hk. rewrite firstn_app.
  destruct (Nat.le_gt_cases (length b) k) as [Hle|Hgt].
  - (* this part arrived in full *)
    destruct (IH (k - length b)%nat ltac:(lia)) as (j & d' & b' & rest & E1 & E2 & E3 & E4 & E5).
    exists (S j), d', b', rest. cbn [nth_error firstn concat]. rewrite app_length, Nat.sub_add_distr.
    rewrite (firstn_all2 b), split_spec_full, E5 by lia. auto.
  - (* the stream ends inside this part *)
    exists 0%nat, d, b, (skipn k b). cbn [nth_error firstn concat length]. rewrite Nat.sub_0_r.
    replace (k - length b)%nat with 0%nat by lia. rewrite app_nil_r, firstn_skipn.
    rewrite split_spec_short by (rewrite firstn_length; lia). repeat split.
    intros E. apply (f_equal (@length Z)) in E. rewrite skipn_length in E. simpl in E. lia.
Qed.

Lemma part_len_translate sep d : part_len (translate_desc sep d) = part_len d.
Proof. reflexivity. Qed.

Lemma lens_ok_translate sep ds bodies :
  lens_ok ds bodies -> lens_ok (map (translate_desc sep) ds) bodies.
Proof. intros H. induction H; constructor; auto. Qed.

Lemma enc_header_nonempty ds : 0 < Z.of_nat (length (enc_header ds)).
Proof. unfold enc_header. simpl length. lia. Qed.

Lemma decode_header_wire : forall ds body sep, descs_ok ds ->
  decode_header (Z.of_nat (length (enc_header ds))) sep (enc_header ds ++ body)
  = Some (map (translate_desc sep) ds, body).
Proof.
  intros ds body sep Hok. unfold decode_header.
  rewrite (proj2 (Z.leb_gt _ _) (enc_header_nonempty ds)), Nat2Z.id, app_length.
  rewrite (proj2 (Nat.ltb_ge _ _)), firstn_prefix, skipn_prefix, parse_header_enc by (auto; lia). reflexivity.
Qed.

(* the payload as a function of what follows the header: whatever it is, it is
   cut at the announced lengths *)
Theorem decode_wire : forall ds body sep req g,
  descs_ok ds -> (1 <= req)%nat -> grants_ok g ->
  decode (Z.of_nat (length (enc_header ds))) sep (enc_header ds ++ body) req g
  = Some (split_spec (map (translate_desc sep) ds) body).
Proof.
  intros. unfold decode. rewrite decode_header_wire, decode_body_spec by auto. reflexivity.
Qed.

Definition no_char (c : Z) (s : wbytes) : Prop := Forall (fun x => (x =? c) = false) s.

(* no separator header: names are taken as they are *)
Theorem translate_none : forall s, translate 0 s = s.
Proof. reflexivity. Qed.
