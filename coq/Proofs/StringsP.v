(* Byte strings, for the wire format and the logs alike: cutting p ++ s after p,
   and strings.Split / strings.Join.  The latter are modelled twice, Wire.wsplit /
   wjoin for any separator and LogM.split_aux / join for ':'; the round trip is
   proved for the first, and the second is the first at SEP. *)
From Coq Require Import List ZArith.
From STS Require Import Model.LogM Model.Wire.
Import ListNotations.
Open Scope Z_scope.

Lemma firstn_prefix {A} (p s : list A) : firstn (length p) (p ++ s) = p.
Proof. induction p; simpl; congruence. Qed.

Lemma skipn_prefix {A} (p s : list A) : skipn (length p) (p ++ s) = s.
Proof. induction p; simpl; auto. Qed.

Lemma wsplit_seg : forall sep x s cur, Forall (fun c => (c =? sep) = false) x ->
  wsplit sep (x ++ s) cur = wsplit sep s (rev x ++ cur).
Proof.
  induction x as [|a x IH]; intros s cur H; [reflexivity|].
  inversion H as [|y ys Ha Hx]; subst. simpl. rewrite Ha, IH, <- app_assoc by auto. reflexivity.
Qed.

Lemma wsplit_field sep x s : Forall (fun c => (c =? sep) = false) x ->
  wsplit sep (x ++ sep :: s) [] = x :: wsplit sep s [].
Proof.
  intros H. rewrite wsplit_seg by auto. simpl. rewrite Z.eqb_refl, app_nil_r, rev_involutive. reflexivity.
Qed.

Lemma wsplit_last sep x : Forall (fun c => (c =? sep) = false) x -> wsplit sep x [] = [x].
Proof.
  intros H. rewrite <- (app_nil_r x) at 1. rewrite wsplit_seg by auto. simpl.
  rewrite app_nil_r, rev_involutive. reflexivity.
Qed.

Theorem wsplit_join : forall sep segs,
  segs <> [] -> Forall (Forall (fun c => (c =? sep) = false)) segs ->
  wsplit sep (wjoin sep segs) [] = segs.
Proof.
  induction segs as [|x [|y r] IH]; intros Hne H; [congruence| |]; inversion H; subst.
  - apply wsplit_last; auto.
  - change (wjoin sep (x :: y :: r)) with (x ++ sep :: wjoin sep (y :: r)).
    rewrite wsplit_field, IH by (auto; discriminate). reflexivity.
Qed.

Lemma split_aux_wsplit : forall s cur, split_aux cur s = wsplit SEP s cur.
Proof. induction s as [|c s IH]; intros cur; simpl; rewrite ?IH; reflexivity. Qed.

Lemma join_wjoin : forall l, join l = wjoin SEP l.
Proof. induction l as [|x [|y l] IH]; simpl in *; congruence. Qed.
