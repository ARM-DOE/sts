(* The receiver model (Model/Stage.v): the integrity invariant [Inv] on histories in
   which every name is announced with one hash (C01, C06), and the tools for statements
   about single operations (C01, C04, C05, C06, C09, C20).

   Every operation of the model is a composition of field setters.  An invariant
   (here [Inv], in StageKP.v [KR]) gets one lemma per setter, and the walk through an
   operation only splits the operation's conditionals ([walk], below).  All lemmas are
   about one setter over a state VARIABLE: comparing two nested chains of setters by
   conversion is exponential in the depth (each of the 17 fields of the rebuilt record
   is compared in turn). *)
From Coq Require Import List ZArith Bool Lia.
From STS Require Import Model.Ranges Model.Queue Model.Stage Proofs.QueueP.
Import ListNotations.
Open Scope Z_scope.

Create HintDb stage discriminated.

Lemma alookup_in {A} (l : list (name * A)) k v : alookup k l = Some v -> In (k, v) l.
Proof.
  induction l as [|[k' v'] r IH]; simpl; [discriminate|].
  destruct (name_eqb k' k) eqn:E; [|auto].
  apply name_eqb_eq in E. intros [= ->]. subst. auto.
Qed.

Lemma aset_in {A} (l : list (name * A)) k v x : In x (aset k v l) -> x = (k, v) \/ In x l.
Proof.
  induction l as [|[k' v'] r IH]; simpl; [|destruct (name_eqb k' k); simpl]; intuition auto.
Qed.

Lemma aremove_in {A} (l : list (name * A)) k x : In x (aremove k l) -> In x l.
Proof.
  induction l as [|[k' v'] r IH]; simpl; [tauto|].
  destruct (name_eqb k' k); simpl; tauto.
Qed.

Lemma aremove_incl {A} (l : list (name * A)) k : incl (aremove k l) l.
Proof. intros x. apply aremove_in. Qed.
#[export] Hint Resolve aremove_incl incl_refl : stage.

Lemma alookup_aset_same {A} (l : list (name * A)) k v : alookup k (aset k v l) = Some v.
Proof.
  induction l as [|[k0 v0] r IH]; simpl; [|destruct (name_eqb k0 k) eqn:E; simpl; rewrite ?E];
    rewrite ?name_eqb_refl; auto.
Qed.

Lemma alookup_aset_other {A} (l : list (name * A)) k k' v :
  k <> k' -> alookup k (aset k' v l) = alookup k l.
Proof.
  intros Hne. assert (E : name_eqb k' k = false) by (apply name_eqb_false_neq; auto).
  induction l as [|[k0 v0] r IH]; simpl; [rewrite E; reflexivity|].
  destruct (name_eqb k0 k') eqn:E0; simpl.
  - apply name_eqb_eq in E0. subst k0. rewrite E. reflexivity.
  - rewrite IH. reflexivity.
Qed.

Lemma list_set_length {A} (l : list A) i v : length (list_set l i v) = length l.
Proof. revert i; induction l as [|x r IH]; intros [|j]; simpl; auto. Qed.

Lemma nth_list_set_same {A} (l : list A) i v d : (i < length l)%nat -> nth i (list_set l i v) d = v.
Proof.
  revert i; induction l as [|x r IH]; intros [|j] Hi; simpl in *; try lia; auto. apply IH. lia.
Qed.

Lemma nth_list_set_other {A} (l : list A) i j v d : i <> j -> nth j (list_set l i v) d = nth j l d.
Proof.
  revert i j; induction l as [|x r IH]; intros [|i] [|j] Hne; simpl; try congruence. apply IH. congruence.
Qed.

Lemma list_set_out {A} (l : list A) i v : (length l <= i)%nat -> list_set l i v = l.
Proof.
  revert i; induction l as [|x r IH]; intros [|j] Hi; simpl in *; try lia; auto. f_equal. apply IH. lia.
Qed.

Lemma list_set_forall {A} (P : A -> Prop) (l : list A) i v :
  Forall P l -> ((i < length l)%nat -> P v) -> Forall P (list_set l i v).
Proof.
  revert i; induction l as [|x r IH]; intros i HF Hv; simpl; auto.
  inversion HF; subst. destruct i as [|j]; constructor; auto.
  - apply Hv. simpl; lia.
  - apply IH; auto. intros. apply Hv. simpl; lia.
Qed.

Lemma fold_left_preserves {A B} (P : A -> Prop) (f : A -> B -> A) l :
  (forall a x, In x l -> P a -> P (f a x)) -> forall a, P a -> P (fold_left f l a).
Proof.
  induction l as [|x r IH]; intros Hf a Ha; simpl; auto.
  apply IH; [intros; apply Hf; simpl; auto | apply Hf; simpl; auto].
Qed.

Lemma received_q_preserves (P : stage -> Prop) :
  (forall s now p, P s -> P (fst (part_received s now p))) ->
  forall ps s now, P s -> P (fst (received_q s now ps)).
Proof.
  intros HP. induction ps as [|p r IH]; intros s now I; simpl; auto.
  pose proof (HP s now p I) as I1. destruct (part_received s now p) as [s1 []]; auto.
  specialize (IH s1 now I1). destruct (received_q s1 now r); auto.
Qed.

Lemma clean_preserves (P : stage -> Prop) :
  (forall s n, P s -> P (clean_stray s n)) -> (forall s o, P s -> P (clean_waiting_one s o)) ->
  forall s, P s -> P (clean s).
Proof.
  intros H1 H2 s I. unfold clean, clean_waiting, clean_strays. repeat apply fold_left_preserves; auto.
Qed.

Lemma obj_nth_error s o f : nth_error (heap s) o = Some f -> obj s o = f /\ (o < length (heap s))%nat.
Proof.
  intros N. split; [apply nth_error_nth; exact N | apply nth_error_Some; congruence].
Qed.

Lemma obj_set_obj_same s o f : (o < length (heap s))%nat -> obj (set_obj s o f) o = f.
Proof. apply nth_list_set_same. Qed.

Lemma obj_set_obj_other s o f o' : o' <> o -> obj (set_obj s o f) o' = obj s o'.
Proof. intros Hne. apply nth_list_set_other. congruence. Qed.

(* toCache rewrites objects in place, the cache and the cache time: nothing else, and the
   heap keeps its length *)
Lemma to_cache_shape s o st : exists h c t,
  to_cache s o st = set_ctime t (set_cache c (set_heap h s)) /\ length h = length (heap s).
Proof.
  exists (heap (to_cache s o st)), (cache (to_cache s o st)), (ctime (to_cache s o st)).
  unfold to_cache, set_obj.
  destruct (_ && (_ =? 0)); destruct (_ && (st =? _)); try destruct (cache_obj _ _);
    (split; [reflexivity|]); cbn [heap set_heap set_cache set_ctime];
    rewrite ?list_set_length; reflexivity.
Qed.

(* what toCache / toWait leave alone, for any projection [f] at once *)
Lemma to_cache_proj {A} (f : stage -> A) s o st :
  (forall h c t x, f (set_ctime t (set_cache c (set_heap h x))) = f x) -> f (to_cache s o st) = f s.
Proof. intros Hf. destruct (to_cache_shape s o st) as (h & c & t & -> & _). apply Hf. Qed.

Lemma to_wait_proj {A} (f : stage -> A) s pv o t :
  (forall h w x, f (set_wait w (set_heap h x)) = f x) -> f (to_wait s pv o t) = f s.
Proof. intros Hf. unfold to_wait, set_obj. destruct (existsb _ _); apply Hf. Qed.

(* the same for validation; its branches do not nest the setters alike, hence one premise per
   setter and one for toCache *)
Lemma process_proj {A} H (f : stage -> A) s o :
  (forall v x, f (set_locks v x) = f x) -> (forall v x, f (set_cmps v x) = f x) ->
  (forall v x, f (set_fulls v x) = f x) -> (forall v x, f (set_waits v x) = f x) ->
  (forall v x, f (set_fq v x) = f x) -> (forall x st, f (to_cache x o st) = f x) ->
  f (process H s o) = f s.
Proof.
  intros Hl Hc Hf Hw Hq Ht. unfold process. destruct (nth_error (heap s) o) as [f0|]; [|reflexivity].
  destruct (negb _); [apply Hl|].
  destruct (alookup _ _); [destruct (name_eqb _ _)|]; rewrite ?Hq, Ht, ?Hw, ?Hf, ?Hc; apply Hl.
Qed.

(* finalisation in two phases: the record is written ([log_record]: "finalize logs
   first"), then the held body is moved and the waiters are released ([put_away]).
   Lemmas about each phase are about a state variable, which keeps them cheap to check. *)
Definition log_record (s : stage) (o : nat) (now : Z) : stage :=
  let f := obj s o in
  let s2 := set_rlog (rlog s ++ [mklr (f_name f) (f_renamed f) (f_hash f) (f_size f) now]) s in
  set_obj s2 o (with_logged (obj s2 o) now).

Definition put_away (s : stage) (n : name) (o : nat) (tgt : name) (body : list Z) : stage :=
  let s4 := set_finals (aset tgt body (finals s)) (set_waits (aremove n (waits s)) s) in
  let s5 := to_cache s4 o ST_FINALIZED in
  let s6 := unlock n (set_cmps (aremove n (cmps s5)) s5) in
  let waiters := match alookup n (wait s6) with Some l => l | None => [] end in
  set_fq (fq s6 ++ waiters) (set_wait (aremove n (wait s6)) s6).

Lemma finalize_phases s now o :
  finalize s now o =
  match nth_error (heap s) o with
  | None => s
  | Some f0 =>
      let n := f_name f0 in
      let s0 := lock n s in
      if negb (cache_state s0 n =? ST_VALIDATED) || negb (name_eqb (cache_hash s0 n) (f_hash f0))
      then unlock n s0
      else
        let s1 := set_obj s0 o (with_timer (obj s0 o) false) in
        let s3 := log_record s1 o now in
        match alookup n (waits s3) with
        | None => unlock n s3
        | Some body => put_away s3 n o (target_of (obj s1 o)) body
        end
  end.
Proof. unfold log_record, put_away. reflexivity. Qed.

Lemma log_record_rlog s o now :
  rlog (log_record s o now) =
  rlog s ++ [mklr (f_name (obj s o)) (f_renamed (obj s o)) (f_hash (obj s o)) (f_size (obj s o)) now].
Proof. reflexivity. Qed.

Lemma put_away_rlog s n o tgt body : rlog (put_away s n o tgt body) = rlog s.
Proof.
  unfold put_away. set (s4 := set_finals _ _).
  destruct (to_cache_shape s4 o ST_FINALIZED) as (h & c & t & -> & _). reflexivity.
Qed.

(* [walk] takes an invariant through an operation.  The goal is [P state] for an
   unfolded operation: the lets are expanded, the conditional at the head of the state
   (if, match, destructuring let; also under fst) is split, and what is left, a chain of
   setters, is closed by [auto] from the hint base [stage], which holds per invariant one
   lemma per setter (declared where the invariant is, local to its file or section).  A
   side condition of a primitive (a hash, a valid id) is found only if it stands in the
   context: the walk lemmas assert it first.  A conditional below a setter is not seen by
   [walk] (hence the hints [inv_if], [KR_if]; a match there has to be split by hand).
   [walk] does not fail: a leaf it cannot close (a fold, an operation that has no hint)
   stays as the goal.  It is called where it closes every leaf.  The depth 30 is above the
   longest chain of setters of the model (in [receive]). *)
Ltac head_cond t :=
  match t with
  | fst ?u => head_cond u
  | match ?x with _ => _ end => x
  end.
Ltac walk :=
  intros; cbv zeta; repeat first
    [ solve [auto 30 with stage]
    | progress cbn [fst]
    | match goal with |- _ ?t => let x := head_cond t in destruct x eqn:? end ].

Section Integrity.
Variable H : list Z -> name.
Variable ver : name -> name.            (* the hash announced for each name *)

Definition rec_target (r : lrec) : name :=
  match l_renamed r with [] => l_name r | x => x end.

Definition obj_ok (f : ffile) : Prop := f_hash f = ver (f_name f).

Record Inv (s : stage) : Prop := mkInv {
  inv_wait : forall n b, In (n, b) (waits s) -> H b = ver n;
  inv_final : forall t b, In (t, b) (finals s) ->
              exists r, In r (rlog s) /\ rec_target r = t /\ H b = l_hash r;
  inv_log : forall r, In r (rlog s) -> l_hash r = ver (l_name r);
  inv_heap : Forall obj_ok (heap s);
  inv_cmp : forall n c, In (n, c) (cmps s) -> c_hash c = ver n;
  (* a file left under its lock name in the final directory by a crash inside
     fileutil.Move was validated and logged before *)
  inv_flck : forall t b, In (t, b) (flcks s) ->
             exists r, In r (rlog s) /\ rec_target r = t /\ H b = l_hash r
}.

(* the invariant only reads six fields, and survives dropping entries from the four maps *)
Lemma inv_shrink s s' :
  Inv s -> incl (waits s') (waits s) -> incl (finals s') (finals s) -> incl (cmps s') (cmps s) ->
  incl (flcks s') (flcks s) -> rlog s' = rlog s -> heap s' = heap s -> Inv s'.
Proof. intros [I1 I2 I3 I4 I5 I6] A B C D E F. constructor; rewrite ?E, ?F; auto. Qed.

Lemma inv_set_parts v s : Inv s -> Inv (set_parts v s). Proof. eauto using inv_shrink, incl_refl. Qed.
Lemma inv_set_fulls v s : Inv s -> Inv (set_fulls v s). Proof. eauto using inv_shrink, incl_refl. Qed.
Lemma inv_set_cache v s : Inv s -> Inv (set_cache v s). Proof. eauto using inv_shrink, incl_refl. Qed.
Lemma inv_set_wait v s : Inv s -> Inv (set_wait v s). Proof. eauto using inv_shrink, incl_refl. Qed.
Lemma inv_set_locks v s : Inv s -> Inv (set_locks v s). Proof. eauto using inv_shrink, incl_refl. Qed.
Lemma inv_set_vq v s : Inv s -> Inv (set_vq v s). Proof. eauto using inv_shrink, incl_refl. Qed.
Lemma inv_set_fq v s : Inv s -> Inv (set_fq v s). Proof. eauto using inv_shrink, incl_refl. Qed.
Lemma inv_set_ctime v s : Inv s -> Inv (set_ctime v s). Proof. eauto using inv_shrink, incl_refl. Qed.
Lemma inv_set_ctimes v s : Inv s -> Inv (set_ctimes v s). Proof. eauto using inv_shrink, incl_refl. Qed.
Lemma inv_set_nbatch v s : Inv s -> Inv (set_nbatch v s). Proof. eauto using inv_shrink, incl_refl. Qed.
Lemma inv_set_waits v s : incl v (waits s) -> Inv s -> Inv (set_waits v s). Proof. eauto using inv_shrink, incl_refl. Qed.
Lemma inv_set_cmps v s : incl v (cmps s) -> Inv s -> Inv (set_cmps v s). Proof. eauto using inv_shrink, incl_refl. Qed.
Lemma inv_set_flcks v s : incl v (flcks s) -> Inv s -> Inv (set_flcks v s). Proof. eauto using inv_shrink, incl_refl. Qed.

Lemma inv_if (c : bool) s1 s2 : Inv s1 -> Inv s2 -> Inv (if c then s1 else s2).
Proof. destruct c; auto. Qed.

Lemma inv_cmps_put n c v s :
  incl v (cmps s) -> c_hash c = ver n -> Inv s -> Inv (set_cmps (aset n c v) s).
Proof.
  intros Hv Hc [A B C D E G]. constructor; simpl; auto.
  intros n0 c0 [[= -> ->]|Hin]%aset_in; auto.
Qed.

Lemma inv_waits_put n b v s :
  incl v (waits s) -> H b = ver n -> Inv s -> Inv (set_waits (aset n b v) s).
Proof.
  intros Hv Hb [A B C D E G]. constructor; simpl; auto.
  intros n0 b0 [[= -> ->]|Hin]%aset_in; auto.
Qed.

Lemma inv_finals_put t b r v s :
  incl v (finals s) -> In r (rlog s) -> rec_target r = t -> H b = l_hash r ->
  Inv s -> Inv (set_finals (aset t b v) s).
Proof.
  intros Hv R1 R2 R3 [A B C D E G]. constructor; simpl; auto.
  intros t0 b0 [[= -> ->]|Hin]%aset_in; eauto.
Qed.

Lemma inv_heap_add f s : obj_ok f -> Inv s -> Inv (set_heap (heap s ++ [f]) s).
Proof. intros Hf [A B C D E G]. constructor; simpl; auto. apply Forall_app; auto. Qed.

(* every in-place update of an object leaves its name and hash alone *)
Lemma inv_set_obj o f s :
  f_name f = f_name (obj s o) -> f_hash f = f_hash (obj s o) -> Inv s -> Inv (set_obj s o f).
Proof.
  intros Hn Hh [A B C D E G]. constructor; simpl; auto.
  apply list_set_forall; auto. intros Ho. unfold obj_ok. rewrite Hn, Hh.
  rewrite Forall_forall in D. apply D, nth_In, Ho.
Qed.

(* appending to the log keeps the records that cover delivered files *)
Lemma inv_log_add r s : l_hash r = ver (l_name r) -> Inv s -> Inv (set_rlog (rlog s ++ [r]) s).
Proof.
  intros Hr [A B C D E G].
  (* for the clauses about delivered and lock-named files *)
  assert (M : forall t b, (exists r0, In r0 (rlog s) /\ rec_target r0 = t /\ H b = l_hash r0) ->
              exists r0, In r0 (rlog s ++ [r]) /\ rec_target r0 = t /\ H b = l_hash r0).
  { intros t b (r0 & R1 & R2). exists r0. split; auto. apply in_or_app; auto. }
  constructor; simpl; auto.
  intros r0 [Hin|[<-|[]]]%in_app_or; auto.
Qed.

(* not hints: [inv_finals_put] and [inv_log_add] (a witness or a fact about the record that
   [auto] cannot guess: applied by hand where a file is logged and moved), [inv_set_flcks] (once,
   in Recover); [inv_set_locks] through [inv_lock] / [inv_unlock] below *)
Hint Resolve inv_set_parts inv_set_fulls inv_set_cache inv_set_wait inv_set_vq inv_set_fq
  inv_set_ctime inv_set_ctimes inv_set_nbatch inv_set_waits inv_set_cmps inv_if
  inv_cmps_put inv_waits_put inv_heap_add : stage.
Hint Extern 1 (Inv (set_obj _ _ _)) => apply inv_set_obj; [reflexivity | reflexivity |] : stage.

Lemma inv_lock s n : Inv s -> Inv (lock n s).
Proof. apply inv_set_locks. Qed.
Lemma inv_unlock s n : Inv s -> Inv (unlock n s).
Proof. apply inv_set_locks. Qed.
Hint Resolve inv_lock inv_unlock : stage.

Lemma inv_to_cache s o st : Inv s -> Inv (to_cache s o st).
Proof. unfold to_cache. walk. Qed.
Hint Resolve inv_to_cache : stage.

Lemma inv_load_records recs : forall s from ct bid,
  (forall r, In r recs -> l_hash r = ver (l_name r)) -> Inv s -> Inv (load_records s recs from ct bid).
Proof.
  induction recs as [|r rest IH]; intros s from ct bid Hr I; simpl; auto.
  destruct (ct <? l_time r); auto. apply IH; [intros; apply Hr; right; auto|].
  apply inv_if, inv_set_cache, inv_heap_add; auto. apply Hr. left; auto.
Qed.
Hint Resolve inv_load_records : stage.

Lemma inv_build_cache s now from : Inv s -> Inv (build_cache s now from).
Proof. intros I. pose proof (inv_log _ I). unfold build_cache. walk. Qed.
Hint Resolve inv_build_cache : stage.

Lemma inv_prepare s n size : Inv s -> Inv (prepare s n size).
Proof. unfold prepare. walk. Qed.

Lemma inv_receive s p d e : p_hash p = ver (p_name p) -> Inv s -> Inv (fst (receive s p d e)).
Proof.
  intros Hp I. unfold receive. destruct (alookup (p_name p) (parts s)) as [sf|]; [|exact I].
  (* [n] also in [Hp], which is then the side condition of the new object as [auto] meets it;
     the companion that is written becomes a variable with its one fact, [inv_cmps_put]'s
     side condition, in the context *)
  set (n := p_name p) in *.
  match goal with |- context [set_cmps (aset n ?c _) _] => set (c1 := c) end.
  assert (Hc : c_hash c1 = ver n).
  { unfold c1. destruct (alookup n (cmps _)) as [c|]; [destruct (name_eqb (c_hash c) (p_hash p)) eqn:E|]; auto.
    apply name_eqb_eq in E. simpl. congruence. }
  clearbody c1. walk.
Qed.

Lemma inv_process s o : Inv s -> Inv (process H s o).
Proof.
  intros I. unfold process. destruct (nth_error (heap s) o) as [f|] eqn:N; auto.
  assert (Hf : obj_ok f) by (eapply Forall_forall; [apply (inv_heap _ I) | eapply nth_error_In; eauto]).
  destruct (alookup _ _) as [body|]; [destruct (name_eqb_spec (H body) (f_hash f)) as [E|_]|]; [|walk..].
  assert (H body = ver (f_name f)) by congruence. walk.
Qed.

Lemma inv_to_wait s pv o t : Inv s -> Inv (to_wait s pv o t).
Proof. unfold to_wait. walk. Qed.
Hint Resolve inv_process inv_to_wait : stage.

Lemma inv_obj s o : Inv s -> (o < length (heap s))%nat -> obj_ok (obj s o).
Proof. intros I Ho. eapply Forall_forall; [apply (inv_heap _ I) | apply nth_In, Ho]. Qed.

Lemma target_of_rec f t : rec_target (mklr (f_name f) (f_renamed f) (f_hash f) (f_size f) t) = target_of f.
Proof. reflexivity. Qed.

Lemma inv_log_record s o now : (o < length (heap s))%nat -> Inv s -> Inv (log_record s o now).
Proof.
  intros Ho I. unfold log_record. apply inv_set_obj, inv_log_add; auto.
  apply (inv_obj _ _ I Ho).
Qed.

Lemma inv_put_away s n o tgt body r :
  In r (rlog s) -> rec_target r = tgt -> H body = l_hash r -> Inv s -> Inv (put_away s n o tgt body).
Proof.
  intros R1 R2 R3 I. unfold put_away.
  apply inv_set_fq, inv_set_wait, inv_unlock, inv_set_cmps, inv_to_cache, (inv_finals_put _ _ r); walk.
Qed.

Lemma inv_finalize s now o : Inv s -> Inv (finalize s now o).
Proof.
  intros I. rewrite finalize_phases. destruct (nth_error (heap s) o) as [f0|] eqn:N; auto.
  destruct (obj_nth_error _ _ _ N) as [<- Ho]. clear N.
  cbv zeta. destruct (negb _ || negb _); [walk|].
  set (n := f_name (obj s o)). set (s1 := set_obj (lock n s) o _).
  assert (Ho1 : (o < length (heap s1))%nat) by (unfold s1; simpl; rewrite list_set_length; exact Ho).
  assert (I1 : Inv s1) by (unfold s1; walk).
  assert (F : f_name (obj s1 o) = n /\ obj_ok (obj s1 o)).
  { split; [unfold s1; rewrite obj_set_obj_same by exact Ho; reflexivity | apply (inv_obj _ _ I1 Ho1)]. }
  assert (I3 : Inv (log_record s1 o now)) by (apply inv_log_record; auto).
  destruct (alookup n (waits (log_record s1 o now))) as [body|] eqn:L; [|walk].
  eapply inv_put_away; [rewrite log_record_rlog; apply in_or_app; simpl; eauto | apply target_of_rec | | exact I3].
  cbn [l_hash]. rewrite (inv_wait _ I3 _ _ (alookup_in _ _ _ L)). destruct F as [F1 F2]. congruence.
Qed.
Hint Resolve inv_finalize : stage.

Lemma inv_handle_final s now o : Inv s -> Inv (handle_final s now o).
Proof. unfold handle_final. walk. Qed.

Lemma inv_settle : forall fuel s now, Inv s -> Inv (settle H fuel s now).
Proof.
  induction fuel as [|k IH]; intros s now I; simpl; auto.
  destruct (vq s); [destruct (fq s)|]; auto; apply IH; auto using inv_handle_final with stage.
Qed.

Lemma inv_part_received s now p : Inv s -> Inv (fst (part_received s now p)).
Proof. unfold part_received. walk. Qed.

Lemma inv_clean_stray s n : Inv s -> Inv (clean_stray s n).
Proof. unfold clean_stray. walk. Qed.

Lemma inv_clean_waiting_one s o : Inv s -> Inv (clean_waiting_one s o).
Proof.
  intros I. unfold clean_waiting_one. do 3 (destruct (negb _); [exact I|]).
  apply fold_left_preserves; walk.
Qed.

Lemma inv_timers_fire s : Inv s -> Inv (timers_fire s).
Proof. unfold timers_fire. apply fold_left_preserves; walk. Qed.

Lemma inv_crash s : Inv s -> Inv (crash s).
Proof. intros [A B C _ E G]. constructor; simpl; auto. Qed.

Lemma inv_recover_rest s fin val n c :
  c_hash c = ver n -> Inv s -> Inv (fst (fst (recover_rest s fin val n c))).
Proof.
  intros Hc I. unfold recover_rest.
  destruct (ahas n (fulls s)); [walk|]. destruct (alookup n (parts s)); [walk|].
  destruct (alookup _ (flcks s)) as [body|] eqn:L; [|walk].
  destruct (inv_flck _ I _ _ (alookup_in _ _ _ L)) as (r & R1 & R2 & R3).
  cbn [fst]. apply inv_set_cmps, inv_set_flcks, (inv_finals_put _ _ r); walk.
Qed.

Lemma inv_recover_one acc n c :
  c_hash c = ver n -> Inv (fst (fst acc)) -> Inv (fst (fst (recover_one H acc (n, c)))).
Proof.
  destruct acc as [[s fin] val]. intros Hc I. unfold recover_one. cbn [fst] in I.
  destruct (alookup n (waits s)); [destruct (name_eqb _ _)|]; try apply inv_recover_rest; walk.
Qed.

Lemma inv_recover s now oldest : Inv s -> Inv (recover H s now oldest).
Proof.
  intros I. unfold recover.
  assert (I1 : Inv (fst (fst (fold_left (recover_one H) (cmps s) (s, [], []))))).
  { apply (fold_left_preserves (fun acc => Inv (fst (fst acc)))); auto.
    intros acc [n c] Hin. apply inv_recover_one, (inv_cmp _ I), Hin. }
  destruct (fold_left _ (cmps s) _) as [[s1 fin] val]. cbn [fst] in I1.
  apply fold_left_preserves; [unfold recover_validate; walk|].
  apply fold_left_preserves; walk.
Qed.

Lemma inv_clean_cache s now : Inv s -> Inv (clean_cache s now).
Proof.
  intros I. unfold clean_cache. destruct (expired_batches (ctimes s) now) as [batches keep].
  apply fold_left_preserves; [unfold clean_cache_entry; walk | walk].
Qed.

Lemma inv_age_all s d : Inv s -> Inv (age_all s d).
Proof.
  intros [A B C D E G]. unfold age_all. set (s2 := set_heap _ (set_rlog _ s)).
  (* for the clauses about delivered and lock-named files *)
  assert (M : forall t b, (exists r, In r (rlog s) /\ rec_target r = t /\ H b = l_hash r) ->
              exists r, In r (map (shift_rec d) (rlog s)) /\ rec_target r = t /\ H b = l_hash r).
  { intros t b (r & R1 & R2). exists (shift_rec d r). split; [apply in_map|]; auto. }
  assert (I2 : Inv s2).
  { constructor; simpl; auto.
    - intros r (r0 & <- & Hr0)%in_map_iff. exact (C _ Hr0).
    - rewrite Forall_forall in *. intros f (f0 & <- & Hf0)%in_map_iff.
      unfold shift_obj. destruct (f_logged f0 =? 0); exact (D _ Hf0). }
  walk.
Qed.

(* operations inside D: every announced part of a name carries THE hash of
   that name; validated bodies (.wait) are not tampered with ([OTamper]'s [ext]: 0 the
   partial, 1 the complete body, 2 the held one) *)
Definition op_in_D (op : sop) : Prop :=
  match op with
  | OReceive p _ _ => p_hash p = ver (p_name p)
  | OTamper _ ext _ => ext = 0 \/ ext = 1
  | OImage img => Inv img      (* the durable state found after a process death satisfies the invariant (C06) *)
  | _ => True
  end.

Theorem inv_step : forall s op, op_in_D op -> Inv s -> Inv (fst (sstep H s op)).
Proof.
  intros s op HD I. destruct op; cbn [sstep op_in_D] in *.
  - apply inv_prepare, I.
  - pose proof (inv_receive s p data rerr HD I). destruct (receive s p data rerr); auto.
  - apply inv_settle, I.
  - pose proof (received_q_preserves _ inv_part_received ps s now I). destruct (received_q s now ps); auto.
  - unfold status_q. walk.
  - unfold scan_q. cbn [fst]. apply fold_left_preserves; walk.
  - apply (clean_preserves _ inv_clean_stray inv_clean_waiting_one), I.
  - apply inv_timers_fire, I.
  - apply inv_recover, inv_crash, I.
  - (* OAge; the cases come in the order of [sop] *) walk.
  - (* OTamper *) destruct HD as [-> | ->]; cbn [Z.eqb Pos.eqb]; walk.
  - apply inv_crash, HD.
  - apply inv_clean_cache, I.
  - apply inv_age_all, I.
  - apply inv_build_cache, I.
Qed.

Fixpoint srun (s : stage) (ops : list sop) : stage :=
  match ops with
  | [] => s
  | op :: r => srun (fst (sstep H s op)) r
  end.

Lemma inv_init : Inv init_stage.
Proof. constructor; simpl; auto; contradiction. Qed.

Theorem inv_run : forall ops s, Forall op_in_D ops -> Inv s -> Inv (srun s ops).
Proof.
  induction ops as [|op r IH]; intros s HD I; simpl; auto.
  inversion HD. apply IH; auto. apply inv_step; auto.
Qed.

Theorem delivered_valid_on_D : forall ops t body,
  Forall op_in_D ops ->
  In (t, body) (finals (srun init_stage ops)) ->
  exists r, In r (rlog (srun init_stage ops)) /\ rec_target r = t /\
            H body = l_hash r /\ l_hash r = ver (l_name r).
Proof.
  intros ops t body HD Hin.
  pose proof (inv_run ops init_stage HD inv_init) as I.
  destruct (inv_final _ I t body Hin) as [r [R1 [R2 R3]]].
  exists r. repeat split; auto. apply (inv_log _ I); auto.
Qed.

End Integrity.

Theorem finalize_logs_first : forall s now o,
  (rlog (finalize s now o) = rlog s /\ finals (finalize s now o) = finals s) \/
  (exists f, nth_error (heap s) o = Some f /\
     rlog (finalize s now o) = rlog s ++ [mklr (f_name f) (f_renamed f) (f_hash f) (f_size f) now]).
Proof.
  intros s now o. rewrite finalize_phases. destruct (nth_error (heap s) o) as [f0|] eqn:N; [|left; auto].
  destruct (obj_nth_error _ _ _ N) as [E Ho].
  cbv zeta. destruct (negb _ || negb _); [left; auto|]. right. exists f0. split; [reflexivity|].
  set (s1 := set_obj (lock (f_name f0) s) o _).
  assert (R : rlog (log_record s1 o now) = rlog s ++ [mklr (f_name f0) (f_renamed f0) (f_hash f0) (f_size f0) now]).
  { rewrite log_record_rlog. unfold s1. rewrite obj_set_obj_same by exact Ho.
    change (obj (lock (f_name f0) s) o) with (obj s o). rewrite E. reflexivity. }
  (* s3 has to be a variable from here on: [clearbody] would leave its body in the term that
     [Qed] checks, and [rlog (put_away s3 ..)] against [rlog s3] is then compared by unfolding *)
  remember (log_record s1 o now) as s3 eqn:E3 in *. clear E3.
  destruct (alookup _ (waits s3)); [rewrite put_away_rlog|]; exact R.
Qed.

Theorem held_is_waiting : forall s now o,
  let f := obj s o in
  cache_state s (f_name f) = ST_VALIDATED ->
  f_prev f <> [] -> f_prev f <> f_name f ->
  (cache_state s (f_prev f) = ST_RECEIVED \/ cache_state s (f_prev f) = ST_FAILED \/
   cache_state s (f_prev f) = ST_VALIDATED) ->
  handle_final s now o = to_wait s (f_prev f) o false /\
  rlog (handle_final s now o) = rlog s /\ waits (handle_final s now o) = waits s.
Proof.
  intros s now o f Hv Hp1 Hp2 Hst.
  assert (E : handle_final s now o = to_wait s (f_prev f) o false).
  { unfold handle_final. fold f. rewrite Hv.
    destruct (f_prev f) as [|c pv] eqn:P; [congruence|].
    destruct (name_eqb (c :: pv) (f_name f)) eqn:N; [apply name_eqb_eq in N; congruence|].
    destruct Hst as [-> | [-> | ->]]; reflexivity. }
  rewrite E. split; [reflexivity|]. split; [apply (to_wait_proj rlog) | apply (to_wait_proj waits)]; reflexivity.
Qed.

(* the stale waiter: a history outside D (two versions, [1; 1] and [2; 2], of the name [120],
   each announced with the predecessor [113], which arrives last).  The status query it opens
   with sets the cache start time and plays no part in what follows. *)
Definition toyH (b : list Z) : name := b.   (* an injective "hash" *)
Definition stale_px (c : name) : part_req := mkpr [120] [] [113] 2 c 0 2 0.
Definition stale_ops : list sop :=
  [OStatusQ 1000 [119] [] 900;
   OPrepare [120] 2; OReceive (stale_px [1; 1]) [1; 1] false; OSettle 1000;
   OPrepare [120] 2; OReceive (stale_px [2; 2]) [2; 2] false; OSettle 1000;
   OPrepare [113] 1; OReceive (mkpr [113] [] [] 1 [9] 0 1 0) [9] false; OSettle 1000].
Definition stale_end : stage := srun toyH init_stage stale_ops.

Lemma stale_finals : finals stale_end = [([113], [9]); ([120], [2; 2])].
Proof. vm_compute. reflexivity. Qed.
Lemma stale_log : rlog stale_end = [mklr [113] [] [9] 1 1000; mklr [120] [] [2; 2] 2 1000].
Proof. vm_compute. reflexivity. Qed.

(* C06: what the scan of one companion during Recover does when the name has no
   held body (or its held body was just dropped): the log and the held bodies stay,
   complete bodies stay, a delivered file stays unless a lock-named leftover of the
   same target is moved over it; the list of files to finalise is not touched *)
Lemma recover_rest_keeps_data s fin val n c :
  let '(s', fin', _) := recover_rest s fin val n c in
  fin' = fin /\ rlog s' = rlog s /\ waits s' = waits s /\
  (forall n0 b, alookup n0 (fulls s) = Some b -> alookup n0 (fulls s') = Some b) /\
  (forall t b, alookup t (finals s) = Some b ->
               alookup t (finals s') = Some b \/ ahas t (flcks s) = true).
Proof.
  unfold recover_rest. destruct (ahas n (fulls s)) eqn:Hf; [simpl; auto 6|].
  destruct (alookup n (parts s)).
  - destruct (complete _ _); simpl; repeat split; auto.
    intros n0 b Hl. rewrite alookup_aset_other; auto.
    intros ->. unfold ahas in Hf. rewrite Hl in Hf. discriminate.
  - set (tgt := match c_renamed c with [] => n | r => r end).
    destruct (alookup tgt (flcks s)) eqn:Lk; simpl; repeat split; auto.
    intros t b Hl. destruct (name_eqb tgt t) eqn:E.
    + apply name_eqb_eq in E. subst t. right. unfold ahas. rewrite Lk. reflexivity.
    + left. rewrite alookup_aset_other; auto. apply name_eqb_false_neq in E. auto.
Qed.

(* C09, "how many of these parts did you receive": the answer is the length of the LEADING
   RUN of parts that are on record, each looked up in the state the look-ups before it left
   behind: it stops at the first part that is not on record and never counts one behind it *)
Inductive counted : stage -> Z -> list part_req -> Z -> Prop :=
| counted_nil : forall s now, counted s now [] 0
| counted_stop : forall s now p r, snd (part_received s now p) = false -> counted s now (p :: r) 0
| counted_more : forall s now p r k,
    snd (part_received s now p) = true ->
    counted (fst (part_received s now p)) now r k -> counted s now (p :: r) (k + 1).
