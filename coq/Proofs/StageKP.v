(* A second invariant of the receiver model, for ALL histories (no restriction
   to one version per name): whatever the cache knows as put away (finalized or
   loaded from the log) has a record in the receive log.  With it the step
   theorem of C04 becomes a statement about every reachable state: a file is
   logged / delivered only when its predecessor reference is empty, itself, or
   a name that IS in the receive log already.  [KR]: what is known is recorded.
   Its last clause, that states are in range, is what turns "none of the four states
   before put away" into "put away" in C04.  Built like [Inv] in StageP.v. *)
From Coq Require Import List ZArith Bool Lia.
From STS Require Import Model.Ranges Model.Queue Model.Stage Proofs.QueueP Proofs.StageP.
Import ListNotations.
Open Scope Z_scope.

Definition in_range (s : stage) (o : nat) : Prop := (o < length (heap s))%nat.
Definition oname (s : stage) (o : nat) : name := f_name (obj s o).
Definition ostate (s : stage) (o : nat) : Z := f_state (obj s o).
Definition logged (s : stage) (n : name) : Prop := log_has s n [] = true.

Record KR (s : stage) : Prop := mkKR {
  k_cache : forall n o, In (n, o) (cache s) ->
      in_range s o /\ oname s o = n /\ (ST_FINALIZED <= ostate s o -> logged s n);
  k_vq : Forall (in_range s) (vq s);
  k_fq : Forall (in_range s) (fq s);
  k_wait : forall p l, In (p, l) (wait s) -> Forall (in_range s) l;
  k_st : Forall (fun f => ST_UNKNOWN <= f_state f <= ST_LOGGED) (heap s)
}.

(* a state in range; a state before "put away".  For the constants both are computed. *)
Definition st_ok (st : Z) : Prop := ST_UNKNOWN <= st <= ST_LOGGED.
Definition early (st : Z) : Prop := ST_UNKNOWN <= st < ST_FINALIZED.
#[local] Hint Extern 1 (st_ok _) => cbv; split; discriminate : stage.
#[local] Hint Extern 1 (early _) => cbv; split; [discriminate | reflexivity] : stage.

Lemma set_obj_out s o f : ~ in_range s o -> heap (set_obj s o f) = heap s.
Proof. intros Hr. apply list_set_out. unfold in_range in Hr. lia. Qed.

Lemma in_range_mono s s' l :
  (length (heap s) <= length (heap s'))%nat -> Forall (in_range s) l -> Forall (in_range s') l.
Proof. intros Hl. apply Forall_impl. unfold in_range. lia. Qed.

Lemma in_range_set_obj s o f o' : in_range s o' -> in_range (set_obj s o f) o'.
Proof. unfold in_range. simpl. rewrite list_set_length. auto. Qed.

Lemma in_range_new s f : in_range (set_heap (heap s ++ [f]) s) (length (heap s)).
Proof. unfold in_range. simpl. rewrite app_length. simpl. lia. Qed.

(* the invariant reads the heap, the cache, the log, both queues and the wait lists;
   entries may be dropped from the cache, the queues and the wait lists *)
Lemma KR_shrink s s' :
  KR s -> heap s' = heap s -> incl (cache s') (cache s) -> rlog s' = rlog s ->
  incl (vq s') (vq s) -> incl (fq s') (fq s) -> incl (wait s') (wait s) -> KR s'.
Proof.
  intros [A B C D E] Eh Ec El Ev Ef Ew.
  constructor; unfold in_range, oname, ostate, obj, logged, log_has; rewrite ?Eh, ?El; eauto.
  - eapply incl_Forall; eauto.
  - eapply incl_Forall; eauto.
Qed.

Lemma KR_irrel s s' : heap s' = heap s -> cache s' = cache s -> rlog s' = rlog s ->
  vq s' = vq s -> fq s' = fq s -> wait s' = wait s -> KR s -> KR s'.
Proof. intros Eh Ec El Ev Ef Ew K. apply (KR_shrink s); rewrite ?Ec, ?Ev, ?Ef, ?Ew; auto using incl_refl. Qed.

Lemma KR_set_parts v s : KR s -> KR (set_parts v s). Proof. eauto using KR_shrink, incl_refl. Qed.
Lemma KR_set_fulls v s : KR s -> KR (set_fulls v s). Proof. eauto using KR_shrink, incl_refl. Qed.
Lemma KR_set_waits v s : KR s -> KR (set_waits v s). Proof. eauto using KR_shrink, incl_refl. Qed.
Lemma KR_set_cmps v s : KR s -> KR (set_cmps v s). Proof. eauto using KR_shrink, incl_refl. Qed.
Lemma KR_set_finals v s : KR s -> KR (set_finals v s). Proof. eauto using KR_shrink, incl_refl. Qed.
Lemma KR_set_locks v s : KR s -> KR (set_locks v s). Proof. eauto using KR_shrink, incl_refl. Qed.
Lemma KR_set_ctime v s : KR s -> KR (set_ctime v s). Proof. eauto using KR_shrink, incl_refl. Qed.
Lemma KR_set_flcks v s : KR s -> KR (set_flcks v s). Proof. eauto using KR_shrink, incl_refl. Qed.
Lemma KR_set_ctimes v s : KR s -> KR (set_ctimes v s). Proof. eauto using KR_shrink, incl_refl. Qed.
Lemma KR_set_nbatch v s : KR s -> KR (set_nbatch v s). Proof. eauto using KR_shrink, incl_refl. Qed.
Lemma KR_set_cache v s : incl v (cache s) -> KR s -> KR (set_cache v s). Proof. eauto using KR_shrink, incl_refl. Qed.
Lemma KR_set_wait v s : incl v (wait s) -> KR s -> KR (set_wait v s). Proof. eauto using KR_shrink, incl_refl. Qed.

Lemma KR_if (c : bool) s1 s2 : KR s1 -> KR s2 -> KR (if c then s1 else s2).
Proof. destruct c; auto. Qed.

Lemma KR_set_vq l s : Forall (in_range s) l -> KR s -> KR (set_vq l s).
Proof. intros Hl [A _ C D E]. constructor; auto. Qed.

Lemma KR_set_fq l s : Forall (in_range s) l -> KR s -> KR (set_fq l s).
Proof. intros Hl [A B _ D E]. constructor; auto. Qed.

Lemma KR_wait_put p l v s :
  incl v (wait s) -> Forall (in_range s) l -> KR s -> KR (set_wait (aset p l v) s).
Proof.
  intros Hv Hl [A B C D E]. constructor; auto.
  intros p' l' [[= -> ->]|Hin]%aset_in; eauto.
Qed.

Lemma KR_cache_put n o v s :
  incl v (cache s) -> in_range s o -> oname s o = n -> (ST_FINALIZED <= ostate s o -> logged s n) ->
  KR s -> KR (set_cache (aset n o v) s).
Proof.
  intros Hv Hr Hn Hs [A B C D E]. constructor; auto.
  intros n' o' [[= -> ->]|Hin]%aset_in; eauto.
Qed.

(* any replacement of the heap; the forms the model uses (a new object, an object rewritten
   in place, [age_all]'s map) follow *)
Lemma KR_set_heap h s :
  (length (heap s) <= length h)%nat -> Forall (fun f => st_ok (f_state f)) h ->
  (forall o, in_range s o -> f_name (nth o h dflt_ff) = oname s o /\
     (ST_FINALIZED <= f_state (nth o h dflt_ff) -> ST_FINALIZED <= ostate s o \/ logged s (oname s o))) ->
  KR s -> KR (set_heap h s).
Proof.
  intros Hl Hst Ho [A B C D E].
  assert (R : forall l, Forall (in_range s) l -> Forall (in_range (set_heap h s)) l)
    by (intro; apply in_range_mono; exact Hl).
  constructor; eauto.
  intros n o Hin. destruct (A n o Hin) as (A1 & <- & A3), (Ho o A1) as [On Os].
  split; [unfold in_range in *; simpl; lia|]. split; [exact On|].
  intros Hf. destruct (Os Hf); auto.
Qed.

Lemma KR_heap_add f s : st_ok (f_state f) -> KR s -> KR (set_heap (heap s ++ [f]) s).
Proof.
  intros Hst K. apply KR_set_heap; auto.
  - rewrite app_length. lia.
  - apply Forall_app. split; [apply (k_st _ K) | auto].
  - intros o Ho. rewrite app_nth1 by exact Ho. auto.
Qed.

(* the log is read only through [logged] *)
Lemma KR_set_rlog l s : (forall n, logged s n -> logged (set_rlog l s) n) -> KR s -> KR (set_rlog l s).
Proof.
  intros Hl [A B C D E]. constructor; auto.
  intros n o Hin. destruct (A n o Hin) as (A1 & A2 & A3). auto.
Qed.

Lemma KR_log_add r s : KR s -> KR (set_rlog (rlog s ++ [r]) s).
Proof.
  apply KR_set_rlog. intros n L. unfold logged, log_has in *. simpl. rewrite existsb_app, L. reflexivity.
Qed.

Lemma obj_state_range s o : KR s -> st_ok (ostate s o).
Proof.
  intros K. unfold ostate, obj. destruct (Nat.lt_ge_cases o (length (heap s))) as [Hl|Hl].
  - pose proof (k_st _ K) as E. rewrite Forall_forall in E. apply E, nth_In, Hl.
  - rewrite nth_overflow by exact Hl. cbv; intuition discriminate.
Qed.

Lemma KR_set_obj_state o f s :
  f_name f = oname s o -> st_ok (f_state f) ->
  (ST_FINALIZED <= f_state f -> ST_FINALIZED <= ostate s o \/ logged s (oname s o)) ->
  KR s -> KR (set_obj s o f).
Proof.
  intros Hn Hst Hs K. apply KR_set_heap; auto.
  - rewrite list_set_length. lia.
  - apply list_set_forall; [apply (k_st _ K) | auto].
  - intros o' Ho'. destruct (Nat.eq_dec o' o) as [->|Hne].
    + rewrite nth_list_set_same by exact Ho'. auto.
    + rewrite nth_list_set_other by auto. auto.
Qed.

Lemma KR_set_obj o f s :
  f_name f = f_name (obj s o) -> f_state f = f_state (obj s o) -> KR s -> KR (set_obj s o f).
Proof.
  intros Hn Hs K. apply KR_set_obj_state; auto.
  - rewrite Hs. apply obj_state_range, K.
  - rewrite Hs. auto.
Qed.

(* not hints: the primitives whose side conditions are not found by [auto] ([KR_set_heap],
   [KR_set_rlog], [KR_set_obj_state], [KR_cache_put], [KR_wait_put]: applied by hand);
   [KR_set_locks] through [KR_lock] / [KR_unlock] below *)
#[local] Hint Resolve KR_set_parts KR_set_fulls KR_set_waits KR_set_cmps KR_set_finals KR_set_ctime
  KR_set_flcks KR_set_ctimes KR_set_nbatch KR_set_cache KR_set_wait KR_if KR_set_vq KR_set_fq
  KR_heap_add KR_log_add : stage.
#[local] Hint Extern 1 (KR (set_obj _ _ _)) => apply KR_set_obj; [reflexivity | reflexivity |] : stage.

Section Steps.
Variable H : list Z -> name.

Lemma to_cache_rlog s o st : rlog (to_cache s o st) = rlog s.
Proof. apply (to_cache_proj rlog). reflexivity. Qed.

Lemma KR_lock s n : KR s -> KR (lock n s).
Proof. apply KR_set_locks. Qed.
Lemma KR_unlock s n : KR s -> KR (unlock n s).
Proof. apply KR_set_locks. Qed.
Hint Resolve KR_lock KR_unlock : stage.

Lemma KR_to_cache s o st :
  in_range s o -> st_ok st -> (ST_FINALIZED <= st -> logged s (oname s o)) -> KR s -> KR (to_cache s o st).
Proof.
  intros Hr Hst Hl K. unfold to_cache.
  set (f := with_batch (with_state (obj s o) st) 0). set (s1 := set_obj s o f).
  assert (K1 : KR s1) by (apply KR_set_obj_state; auto).
  (* the two states the cache entry is written into: with the cache time set, and without
     (that one from the first, since [set_ctime (ctime s1) s1] is not [s1] syntactically);
     [walk] finds both in the context *)
  assert (F : forall t, KR (set_cache (aset (f_name f) o (cache (set_ctime t s1))) (set_ctime t s1))).
  { intros t. apply KR_cache_put; auto with stage; unfold in_range, oname, ostate, obj; simpl;
      rewrite ?list_set_length, ?nth_list_set_same; auto. }
  assert (KR (set_cache (aset (f_name f) o (cache s1)) s1)).
  { apply (KR_shrink _ _ (F (ctime s1))); auto using incl_refl. }
  destruct (negb (f_logged f =? 0) && _); walk.
Qed.

Lemma KR_to_cache_early s o st : in_range s o -> early st -> KR s -> KR (to_cache s o st).
Proof. intros Hr Hst. apply KR_to_cache; unfold early, st_ok, ST_LOGGED, ST_FINALIZED in *; auto; lia. Qed.

Lemma heap_len_to_cache s o st : length (heap (to_cache s o st)) = length (heap s).
Proof. destruct (to_cache_shape s o st) as (h & c & t & -> & L). exact L. Qed.

Lemma in_range_to_cache s o st o' : in_range s o' -> in_range (to_cache s o st) o'.
Proof. unfold in_range. rewrite heap_len_to_cache. auto. Qed.

Lemma KR_vq_app l s : Forall (in_range s) l -> KR s -> KR (set_vq (vq s ++ l) s).
Proof. intros Hl K. apply KR_set_vq; auto. apply Forall_app. split; [apply (k_vq _ K) | auto]. Qed.

Lemma KR_fq_app l s : Forall (in_range s) l -> KR s -> KR (set_fq (fq s ++ l) s).
Proof. intros Hl K. apply KR_set_fq; auto. apply Forall_app. split; [apply (k_fq _ K) | auto]. Qed.
Hint Resolve KR_to_cache_early KR_vq_app KR_fq_app in_range_to_cache in_range_new : stage.

Lemma KR_process s o : KR s -> KR (process H s o).
Proof.
  unfold process. destruct (nth_error (heap s) o) as [f|] eqn:N; auto.
  destruct (obj_nth_error _ _ _ N) as [_ Ho].
  (* [KR_to_cache_early] for the states of the branches, whose heap is still that of [s]:
     its side condition [in_range s1 o] is not one [auto] finds *)
  assert (T : forall s1 st, heap s1 = heap s -> early st -> KR s1 -> KR (to_cache s1 o st)).
  { intros s1 st E. apply KR_to_cache_early. unfold in_range. rewrite E. exact Ho. }
  walk.
Qed.

Lemma wait_list_in_range s p : KR s ->
  Forall (in_range s) (match alookup p (wait s) with Some l => l | None => [] end).
Proof.
  intros K. destruct (alookup p (wait s)) as [l|] eqn:E; [|constructor].
  apply (k_wait _ K p l), alookup_in, E.
Qed.

Lemma KR_to_wait s pv o t : in_range s o -> KR s -> KR (to_wait s pv o t).
Proof.
  intros Hr K. unfold to_wait. set (s1 := set_obj s o _).
  assert (K1 : KR s1) by (unfold s1; walk).
  assert (Hr1 : in_range s1 o) by apply in_range_set_obj, Hr.
  pose proof (wait_list_in_range s1 pv K1) as Hc. destruct (existsb _ _); apply KR_wait_put; auto with stage.
  - rewrite Forall_forall in *. intros x (w & <- & Hw)%in_map_iff. destruct (name_eqb _ _); auto.
  - apply Forall_app; auto with stage.
Qed.

Lemma logged_of_record s r : In r (rlog s) -> logged s (l_name r).
Proof.
  intros Hin. apply existsb_exists. exists r. rewrite name_eqb_refl. auto.
Qed.

Lemma KR_log_record s o now : in_range s o -> KR s ->
  let s' := log_record s o now in KR s' /\ in_range s' o /\ logged s' (oname s' o).
Proof.
  intros Ho K. unfold log_record. set (s2 := set_rlog _ s).
  assert (L2 : logged s2 (f_name (obj s o))) by (eapply (logged_of_record s2 (mklr _ _ _ _ _)), in_or_app; simpl; eauto).
  split; [unfold s2; walk|]. split; [apply in_range_set_obj, Ho|].
  unfold oname. rewrite obj_set_obj_same by exact Ho. exact L2.
Qed.

Lemma KR_release n s : KR s ->
  KR (set_fq (fq s ++ match alookup n (wait s) with Some l => l | None => [] end)
             (set_wait (aremove n (wait s)) s)).
Proof.
  intros K. apply (KR_fq_app _ (set_wait _ s)); [apply (wait_list_in_range _ _ K) | walk].
Qed.

Lemma KR_put_away s n o tgt body :
  in_range s o -> logged s (oname s o) -> KR s -> KR (put_away s n o tgt body).
Proof.
  intros Ho L K. unfold put_away.
  apply KR_release, KR_unlock, KR_set_cmps, KR_to_cache; walk.
Qed.

Lemma KR_finalize s now o : KR s -> KR (finalize s now o).
Proof.
  intros K. rewrite finalize_phases. destruct (nth_error (heap s) o) as [f0|] eqn:N; auto.
  destruct (obj_nth_error _ _ _ N) as [_ Ho]. cbv zeta. destruct (negb _ || negb _); [walk|].
  set (s1 := set_obj (lock (f_name f0) s) o _).
  destruct (KR_log_record s1 o now) as (K3 & Ho3 & L3).
  { apply in_range_set_obj, Ho. }
  { unfold s1. walk. }
  destruct (alookup _ (waits _)); [apply KR_put_away|]; walk.
Qed.
Hint Resolve KR_process KR_finalize KR_to_wait : stage.

Lemma KR_handle_final s now o : in_range s o -> KR s -> KR (handle_final s now o).
Proof. unfold handle_final. walk. Qed.

Lemma KR_settle : forall fuel s now, KR s -> KR (settle H fuel s now).
Proof.
  induction fuel as [|k IH]; intros s now K; simpl; auto.
  destruct (vq s) as [|o r] eqn:V; [destruct (fq s) as [|o r] eqn:F|]; auto; apply IH.
  - pose proof (k_fq _ K) as HF. rewrite F in HF. inversion HF.
    apply KR_handle_final; walk.
  - pose proof (k_vq _ K) as HV. rewrite V in HV. inversion HV. walk.
Qed.

Lemma KR_prepare s n size : KR s -> KR (prepare s n size).
Proof. unfold prepare. walk. Qed.

Lemma KR_receive s p d e : KR s -> KR (fst (receive s p d e)).
Proof.
  intros K. unfold receive. destruct (alookup (p_name p) (parts s)) as [sf|]; [|exact K].
  set (n := p_name p).
  (* the companion that is written is a large term the invariant does not read: as a
     variable it is not copied by every split below *)
  match goal with |- context [set_cmps (aset n ?c _) _] => generalize c; intros c1 end.
  walk.
Qed.

Lemma KR_load_records : forall recs s from ct bid,
  incl recs (rlog s) -> KR s -> KR (load_records s recs from ct bid).
Proof.
  induction recs as [|r rest IH]; intros s from ct bid Hsub K; simpl; auto.
  destruct (ct <? l_time r); auto. apply incl_cons_inv in Hsub as [Hr Hsub]. apply IH.
  - destruct (_ || _); exact Hsub.
  - apply KR_if; auto. apply KR_cache_put; auto with stage.
    + unfold oname, obj. simpl. rewrite app_nth2, Nat.sub_diag; auto.
    + intros _. apply (logged_of_record s), Hr.
Qed.

Hint Resolve KR_load_records : stage.

Lemma KR_build_cache s now from : KR s -> KR (build_cache s now from).
Proof. unfold build_cache. walk. Qed.
Hint Resolve KR_build_cache : stage.

Lemma KR_part_received s now p : KR s -> KR (fst (part_received s now p)).
Proof. unfold part_received. walk. Qed.

Lemma KR_clean_stray s n : KR s -> KR (clean_stray s n).
Proof. unfold clean_stray. walk. Qed.

Lemma cache_obj_in_range s n c : KR s -> cache_obj s n = Some c -> in_range s c.
Proof. intros K E. apply (k_cache _ K n c), alookup_in, E. Qed.

Lemma KR_clean_waiting_one s o : KR s -> KR (clean_waiting_one s o).
Proof.
  intros K. unfold clean_waiting_one. do 3 (destruct (negb _); [exact K|]).
  apply fold_left_preserves; [|walk]. intros a w _ Ka.
  destruct (cache_obj a _) as [c|] eqn:C; [|exact Ka]. destruct (_ =? _); [|exact Ka].
  apply KR_fq_app; [|walk]. repeat constructor. eapply in_range_set_obj, cache_obj_in_range; eauto.
Qed.

Lemma KR_timers_fire s : KR s -> KR (timers_fire s).
Proof.
  intros K. unfold timers_fire.
  apply (fold_left_preserves (fun a => KR a /\ length (heap a) = length (heap s))); auto.
  intros a o Ho%in_seq [Ka La]. destruct (f_timer (obj a o)); auto.
  split; [|simpl; rewrite list_set_length; exact La].
  apply KR_fq_app; [|walk]. repeat constructor. apply in_range_set_obj. unfold in_range. lia.
Qed.

Lemma KR_empty s : heap s = [] -> cache s = [] -> vq s = [] -> fq s = [] -> wait s = [] -> KR s.
Proof. intros Eh Ec Ev Ef Ew. constructor; rewrite ?Eh, ?Ec, ?Ev, ?Ef, ?Ew; auto; intros ? ? []. Qed.

Lemma KR_crash s : KR (crash s).
Proof. apply KR_empty; reflexivity. Qed.

Lemma KR_init : KR init_stage.
Proof. apply KR_empty; reflexivity. Qed.

Lemma heap_len_process s o : length (heap (process H s o)) = length (heap s).
Proof.
  apply (process_proj H (fun x => length (heap x))); try reflexivity. intros. apply heap_len_to_cache.
Qed.

Lemma heap_len_build_cache s now from : (length (heap s) <= length (heap (build_cache s now from)))%nat.
Proof.
  assert (L : forall recs s from ct bid, (length (heap s) <= length (heap (load_records s recs from ct bid)))%nat).
  { induction recs as [|r rest IH]; intros s0 from0 ct bid; simpl; [lia|].
    destruct (ct <? l_time r); [lia|]. etransitivity; [|apply IH].
    destruct (_ || _); simpl; rewrite ?app_length; lia. }
  unfold build_cache. destruct (from =? 0); [lia|]. destruct (_ && _); [lia|].
  destruct (visited_any _ _ _); apply L.
Qed.

(* Recover keeps lists of the objects it has created, to cache them later: the invariant
   together with a list of ids that are valid *)
Definition live (l : list nat) (s : stage) : Prop := KR s /\ Forall (in_range s) l.

Lemma live_mono l s s' :
  (length (heap s) <= length (heap s'))%nat -> KR s' -> live l s -> live l s'.
Proof. intros Hl K' [_ Hr]. split; [exact K' | exact (in_range_mono _ _ _ Hl Hr)]. Qed.

Lemma live_in l s o : live l s -> In o l -> in_range s o.
Proof. intros [_ Hl]. rewrite Forall_forall in Hl. apply Hl. Qed.

Definition rec_acc_ok (acc : stage * list nat * list nat) : Prop :=
  let '(s, fin, val) := acc in live (fin ++ val) s.

(* a new object noted in either list ([apply] takes the half that matches) *)
Lemma rec_acc_new s fin val f o :
  o = length (heap s) -> st_ok (f_state f) -> rec_acc_ok (s, fin, val) ->
  rec_acc_ok (set_heap (heap s ++ [f]) s, fin, val ++ [o]) /\
  rec_acc_ok (set_heap (heap s ++ [f]) s, fin ++ [o], val).
Proof.
  intros -> Hf A. unfold rec_acc_ok.
  assert (L : live ((fin ++ val) ++ [length (heap s)]) (set_heap (heap s ++ [f]) s)).
  { destruct A as [K Hl]. split; [walk|]. apply Forall_app. split.
    - apply (in_range_mono s); auto. simpl. rewrite app_length. lia.
    - repeat constructor. apply in_range_new. }
  destruct L as [K Hl]. split; (split; [exact K|]); rewrite !Forall_app in *; tauto.
Qed.

Lemma rec_acc_recover_rest s fin val n c :
  rec_acc_ok (s, fin, val) -> rec_acc_ok (recover_rest s fin val n c).
Proof.
  intros A. unfold recover_rest.
  destruct (ahas n (fulls s)); [apply rec_acc_new; auto with stage|]. destruct (alookup n (parts s)).
  - destruct (complete _ _); [|exact A]. apply rec_acc_new; auto with stage. destruct A. split; [walk | auto].
  - destruct A. destruct (alookup _ (flcks s)); (split; [walk | auto]).
Qed.

Lemma rec_acc_recover_one acc kv : rec_acc_ok acc -> rec_acc_ok (recover_one H acc kv).
Proof.
  destruct acc as [[s fin] val], kv as [n c]. intros A. unfold recover_one.
  destruct (alookup n (waits s)); [destruct (name_eqb _ _)|]; try apply rec_acc_recover_rest; auto.
  - apply rec_acc_new; auto with stage.
  - destruct A. split; [walk | auto].
Qed.

(* the two loops at the end of Recover cache the noted objects; the heap keeps its length *)
Lemma live_requeue l s o :
  In o l -> live l s -> live l (set_fq (fq (to_cache s o ST_VALIDATED) ++ [o]) (to_cache s o ST_VALIDATED)).
Proof.
  intros Ho L. pose proof (live_in _ _ _ L Ho) as Hr.
  assert (K' : KR (to_cache s o ST_VALIDATED))
    by (apply KR_to_cache_early; auto with stage; apply L).
  apply (live_mono l s); [simpl; rewrite heap_len_to_cache; lia | walk | exact L].
Qed.

Lemma live_recover_validate l s o : In o l -> live l s -> live l (recover_validate H s o).
Proof.
  intros Ho L. pose proof (live_in _ _ _ L Ho) as Hr. unfold recover_validate.
  destruct (_ && _); apply (live_mono l s); try exact L.
  - simpl. lia.
  - destruct L. walk.
  - rewrite heap_len_process, heap_len_to_cache. lia.
  - apply KR_process, KR_to_cache_early; auto with stage; apply L.
Qed.

Lemma KR_recover s now oldest : KR s -> KR (recover H s now oldest).
Proof.
  intros K. unfold recover.
  assert (A : rec_acc_ok (fold_left (recover_one H) (cmps s) (s, [], [])))
    by (apply fold_left_preserves; [intros; apply rec_acc_recover_one; auto | split; [exact K | constructor]]).
  destruct (fold_left _ (cmps s) _) as [[s1 fin] val]. unfold rec_acc_ok in A.
  apply (live_mono _ _ (build_cache s1 now (Z.min now oldest - 86400))) in A;
    [| apply heap_len_build_cache | apply KR_build_cache, A].
  refine (proj1 (_ : live (fin ++ val) _)).
  apply fold_left_preserves; [| apply fold_left_preserves; auto].
  - intros a o Ho. apply live_recover_validate, in_or_app; auto.
  - intros a o Ho. apply live_requeue, in_or_app; auto.
Qed.

Lemma KR_clean_cache s now : KR s -> KR (clean_cache s now).
Proof.
  intros K. unfold clean_cache. destruct (expired_batches (ctimes s) now) as [batches keep].
  apply fold_left_preserves; [unfold clean_cache_entry; walk | walk].
Qed.

Lemma log_has_shift s d n : log_has (set_rlog (map (shift_rec d) (rlog s)) s) n [] = log_has s n [].
Proof.
  unfold log_has. simpl. induction (rlog s) as [|r l IH]; simpl; [reflexivity|]. rewrite IH. reflexivity.
Qed.

Lemma KR_age_all s d : KR s -> KR (age_all s d).
Proof.
  intros K. unfold age_all. set (s1 := set_rlog _ s).
  assert (K1 : KR s1) by (apply KR_set_rlog; [|exact K]; intros n L; unfold logged; rewrite log_has_shift; exact L).
  assert (K2 : KR (set_heap (map (shift_obj d) (heap s1)) s1)).
  { apply KR_set_heap; [rewrite map_length; lia | | | exact K1].
    - apply Forall_map. eapply Forall_impl; [|apply (k_st _ K)].
      intros f. unfold shift_obj. destruct (_ =? 0); auto.
    - intros o Ho. change dflt_ff with (shift_obj d dflt_ff) at 1 2. rewrite map_nth.
      unfold shift_obj. destruct (_ =? 0); auto. }
  walk.
Qed.

Theorem KR_step : forall s op, KR s -> KR (fst (sstep H s op)).
Proof.
  intros s op K. destruct op; cbn [sstep].
  - apply KR_prepare, K.
  - pose proof (KR_receive s p data rerr K). destruct (receive s p data rerr); auto.
  - apply KR_settle, K.
  - pose proof (received_q_preserves _ KR_part_received ps s now K). destruct (received_q s now ps); auto.
  - unfold status_q. walk.
  - unfold scan_q. cbn [fst]. apply fold_left_preserves; walk.
  - apply (clean_preserves _ KR_clean_stray KR_clean_waiting_one), K.
  - apply KR_timers_fire, K.
  - apply KR_recover, KR_crash.
  - (* OAge; the cases come in the order of [sop] *) walk.
  - (* OTamper *) walk.
  - apply KR_crash.
  - apply KR_clean_cache, K.
  - apply KR_age_all, K.
  - apply KR_build_cache, K.
Qed.

Theorem KR_run : forall ops s, KR s -> KR (srun H s ops).
Proof.
  induction ops as [|op r IH]; intros s K; simpl; auto. apply IH, KR_step; auto.
Qed.

End Steps.
