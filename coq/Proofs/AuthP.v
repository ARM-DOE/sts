From Coq Require Import List Bool.
From STS Require Import Model.Auth Proofs.QueueP.
Import ListNotations.

Definition plain_list (l : list seg) : Prop := Forall (fun s => plain_seg s = true) l.

Lemma plain_not (s : seg) : plain_seg s = true <-> is_empty s = false /\ is_dot s = false /\ is_dotdot s = false.
Proof. unfold plain_seg. rewrite !andb_true_iff, !negb_true_iff. tauto. Qed.

Lemma filter_plain : forall l : list seg, plain_list l ->
  filter (fun e : seg => negb (is_empty e)) l = l.
Proof.
  intros l H. induction H as [|y l Hy _ IH]; [reflexivity|]. simpl.
  apply plain_not in Hy as (-> & _). simpl. f_equal. exact IH.
Qed.

(* plain segments are pushed, by both cleaners *)
Lemma clean_plain : forall segs stack, plain_list segs ->
  clean_abs stack segs = rev stack ++ segs /\ clean_rel stack segs = rev stack ++ segs.
Proof.
  induction segs as [|s r IH]; intros stack Hp; simpl.
  - rewrite app_nil_r. auto.
  - inversion Hp as [|x xs Hs Hr]; subst. apply plain_not in Hs as (E1 & E2 & E3).
    rewrite E1, E2, E3. simpl. destruct (IH (s :: stack) Hr) as [-> ->]. simpl. rewrite <- app_assoc. auto.
Qed.

Lemma clean_abs_plain : forall segs stack,
  plain_list segs -> clean_abs stack segs = rev stack ++ segs.
Proof. apply clean_plain. Qed.

Lemma clean_rel_plain : forall segs stack,
  plain_list segs -> clean_rel stack segs = rev stack ++ segs.
Proof. apply clean_plain. Qed.

Lemma clean_abs_app : forall a st b, clean_abs st (a ++ b) = clean_abs (rev (clean_abs st a)) b.
Proof.
  induction a as [|s a IH]; intros st b; simpl; [rewrite rev_involutive; reflexivity|].
  destruct (is_empty s || is_dot s); [|destruct (is_dotdot s); [destruct st|]]; apply IH.
Qed.

(* a ".." at the bottom of the relative stack is never popped *)
Lemma clean_rel_bottom : forall segs st b, is_dotdot b = true ->
  clean_rel (st ++ [b]) segs = b :: clean_rel st segs.
Proof.
  induction segs as [|s r IH]; intros st b Hb; simpl; [apply rev_unit|].
  destruct (is_empty s || is_dot s); [auto|]. destruct (is_dotdot s); [|apply (IH (s :: st)); auto].
  destruct st as [|t st]; simpl; [rewrite Hb; apply (IH [s]); auto|].
  destruct (is_dotdot t); [apply (IH (s :: t :: st))|]; auto.
Qed.

(* Clean(base/name) from Clean(name): the relative clean form is some ".."s
   followed by plain segments; the absolute one drops as many segments from the
   base (B, reversed, below the plain stack P both runs share) and keeps the rest *)
Theorem clean_abs_rel : forall segs P, plain_list P ->
  exists D Q, Forall (fun s => is_dotdot s = true) D /\ plain_list Q /\
    clean_rel P segs = D ++ Q /\
    forall B, clean_abs (P ++ B) segs = rev (skipn (length D) B) ++ Q.
Proof.
  induction segs as [|s r IH]; intros P HP; simpl.
  - exists [], (rev P). repeat split; [constructor | apply Forall_rev; exact HP | apply rev_app_distr].
  - destruct (is_empty s || is_dot s) eqn:E1; [auto|]. destruct (is_dotdot s) eqn:E2.
    + destruct P as [|t P].
      * destruct (IH [] HP) as (D & Q & HD & HQ & Er & Ea). exists (s :: D), Q.
        rewrite (clean_rel_bottom r [] s E2 : clean_rel [s] r = _), Er. repeat split; auto.
        intros [|x B]; [specialize (Ea []); rewrite skipn_nil in Ea|]; apply Ea.
      * inversion HP as [|x xs Ht HP']. apply plain_not in Ht as (_ & _ & ->). exact (IH P HP').
    + apply orb_false_iff in E1 as []. apply (IH (s :: P)). constructor; [apply plain_not|]; auto.
Qed.

Lemma has_prefix_app : forall p l, has_prefix p (p ++ l) = true.
Proof. induction p as [|x p IH]; intros l; simpl; auto. rewrite name_eqb_refl. simpl. auto. Qed.

Lemma standard_valid_spec : forall sources keys source key cs,
  standard_valid sources keys source key cs = true <->
  ((sources = [] \/ (cs = true /\ smem source sources = true)) /\
   (keys = [] \/ smem key keys = true)).
Proof.
  intros. unfold standard_valid.
  destruct sources, keys; rewrite ?andb_true_iff; intuition congruence.
Qed.
