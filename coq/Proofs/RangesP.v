From Coq Require Import List ZArith Bool Lia.
From STS Require Import Model.Ranges.
Import ListNotations.
Open Scope Z_scope.

Lemma covered_nil i : covered [] i <-> False.
Proof. split; [intros [r [[] _]] | tauto]. Qed.

Lemma covered_cons b e ps i : covered ((b, e) :: ps) i <-> b <= i < e \/ covered ps i.
Proof.
  unfold covered; split.
  - intros [x [[<-|Hin] Hx]]; [left; exact Hx | right; exists x; auto].
  - intros [H|[x [Hin Hx]]]; [exists (b, e) | exists x]; simpl; auto.
Qed.

Lemma covered_app xs ys i : covered (xs ++ ys) i <-> covered xs i \/ covered ys i.
Proof.
  unfold covered; split.
  - intros (r & Hin & Hr). apply in_app_or in Hin as [H|H]; [left | right]; exists r; auto.
  - intros [(r & Hin & Hr)|(r & Hin & Hr)]; exists r; auto using in_or_app.
Qed.

Lemma covered_incl xs ys i : (forall q, In q xs -> In q ys) -> covered xs i -> covered ys i.
Proof. intros H [r [Hin Hr]]. exists r; auto. Qed.

Lemma covered_b_spec ps i : covered_b ps i = true <-> covered ps i.
Proof.
  induction ps as [|[b e] ps IH]; simpl.
  - rewrite covered_nil. split; [discriminate | tauto].
  - rewrite covered_cons, orb_true_iff, IH. unfold in_range_b; simpl.
    rewrite andb_true_iff, Z.leb_le, Z.ltb_lt. tauto.
Qed.

Lemma no_gap_covers : forall ps pe i,
  no_gap pe ps = true -> pe <= i < last_end ps pe -> covered ps i.
Proof.
  induction ps as [|[qb qe] rest IH]; intros pe i Hg Hi; simpl in *; [lia|].
  destruct (Z.ltb_spec pe qb); [discriminate|].
  apply covered_cons. destruct (Z_lt_dec i qe); [left; lia | right; apply (IH qe); auto; lia].
Qed.

Lemma complete_cons pb pe rest size :
  complete ((pb, pe) :: rest) size = true <->
  pb = 0 /\ last_end rest pe = size /\ no_gap pe rest = true.
Proof. unfold complete. rewrite !andb_true_iff, !Z.eqb_eq. tauto. Qed.

Theorem complete_ends : forall ps size,
  complete ps size = true ->
  exists pb pe rest, ps = (pb, pe) :: rest /\ pb = 0 /\ last_end rest pe = size.
Proof.
  intros [|[pb pe] rest] size Hc; [discriminate|].
  apply complete_cons in Hc as (Hb & He & _). eauto 6.
Qed.

Lemma range_eqb_eq q p : range_eqb q p = true <-> q = p.
Proof.
  destruct q, p; unfold range_eqb; simpl. rewrite andb_true_iff, !Z.eqb_eq.
  split; [intros [-> ->]; reflexivity | intros H; inversion H; auto].
Qed.

(* addCompanionPart, as a set of ranges.  "Compatible" with a record: disjoint
   from or identical to each of its ranges (one step of the discipline below). *)
Lemma compatible_spec p ps :
  forallb (fun q => disjoint_b q p || range_eqb q p) ps = true <->
  Forall (fun q => disjoint_b q p = true \/ q = p) ps.
Proof.
  rewrite forallb_forall, Forall_forall.
  split; intros H q Hq; specialize (H q Hq); rewrite orb_true_iff, range_eqb_eq in *; exact H.
Qed.

(* never anything but the new part and what was on record - for EVERY record and part *)
Lemma add_part_in : forall ps b e q,
  In q (add_part ps b e) -> In q ((b, e) :: ps).
Proof.
  induction ps as [|[pb pe] rest IH]; intros b e q; simpl; [tauto|].
  specialize (IH b e q). destruct (pe <=? b); [|destruct (e <=? pb)]; simpl in *; tauto.
Qed.

(* a part that overlaps the new one is REPLACED; a compatible one is the new one *)
Lemma replaced_is_new pb pe b e :
  disjoint_b (pb, pe) (b, e) = true \/ (pb, pe) = (b, e) ->
  (pe <=? b) = false -> (e <=? pb) = false -> (pb, pe) = (b, e).
Proof. unfold disjoint_b; simpl. intros [H|H] H1 H2; [rewrite H1, H2 in H; discriminate | exact H]. Qed.

Lemma add_part_keeps : forall ps b e q,
  Forall (fun p => disjoint_b p (b, e) = true \/ p = (b, e)) ps ->
  In q ((b, e) :: ps) -> In q (add_part ps b e).
Proof.
  induction ps as [|[pb pe] rest IH]; intros b e q Hc Hq; [exact Hq|].
  apply Forall_cons_iff in Hc as [Hp Hc']. specialize (IH b e q Hc'). simpl.
  destruct (pe <=? b) eqn:H1; [|destruct (e <=? pb) eqn:H2].
  - simpl in *. tauto.
  - exact Hq.
  - rewrite (replaced_is_new _ _ _ _ Hp H1 H2) in Hq. simpl in *. tauto.
Qed.

Definition lower_bounded (lo : Z) (ps : list range) : Prop :=
  match ps with [] => True | (pb, _) :: _ => lo <= pb end.

Lemma sorted_disjoint_cons pb pe rest :
  sorted_disjoint_b ((pb, pe) :: rest) = true <->
  pb < pe /\ lower_bounded pe rest /\ sorted_disjoint_b rest = true.
Proof.
  cbn [sorted_disjoint_b]. destruct rest as [|[qb qe] r'].
  - rewrite andb_true_r, Z.ltb_lt. simpl. tauto.
  - rewrite !andb_true_iff, Z.ltb_lt, Z.leb_le. tauto.
Qed.

Lemma add_part_lower_bounded lo ps b e :
  lower_bounded lo ps -> lo <= b -> lower_bounded lo (add_part ps b e).
Proof.
  destruct ps as [|[pb pe] rest]; simpl; auto.
  destruct (pe <=? b); auto. destruct (e <=? pb); auto.
Qed.

Theorem add_part_sorted : forall ps b e,
  sorted_disjoint_b ps = true -> b < e ->
  Forall (fun p => disjoint_b p (b, e) = true \/ p = (b, e)) ps ->
  sorted_disjoint_b (add_part ps b e) = true.
Proof.
  induction ps as [|[pb pe] rest IH]; intros b e Hs Hbe Hc.
  - apply sorted_disjoint_cons; simpl; auto.
  - inversion Hc as [|x xs Hp Hc']; subst. simpl.
    destruct (Z.leb_spec pe b) as [H1|H1]; [|destruct (Z.leb_spec e pb) as [H2|H2]].
    + apply sorted_disjoint_cons in Hs as (Hpe & Hlb & Hs).
      apply sorted_disjoint_cons; auto using add_part_lower_bounded.
    + apply sorted_disjoint_cons; auto.
    + rewrite <- (replaced_is_new _ _ _ _ Hp); [exact Hs | apply Z.leb_gt; exact H1 | apply Z.leb_gt; exact H2].
Qed.

Definition add_all (ps : list range) (parts : list range) : list range :=
  fold_left (fun acc p => add_part acc (fst p) (snd p)) parts ps.

(* over ALL histories (whatever order, overlap or repetition) the record holds
   nothing but acknowledged parts *)
Theorem add_all_in : forall parts ps q,
  In q (add_all ps parts) -> In q ps \/ In q parts.
Proof.
  induction parts as [|[b e] rest IH]; intros ps q H; simpl; [tauto|].
  apply IH in H as [H|H]; [apply add_part_in in H; simpl in H|]; tauto.
Qed.

(* history discipline D: every part is non-empty and disjoint from or
   identical to every EARLIER part of the same version *)
Fixpoint discipline (seen : list range) (parts : list range) : Prop :=
  match parts with
  | [] => True
  | p :: rest =>
      fst p < snd p /\
      Forall (fun q => disjoint_b q p = true \/ q = p) seen /\
      discipline (p :: seen) rest
  end.

Lemma discipline_incl : forall parts s1 s2,
  (forall q, In q s1 -> In q s2) -> discipline s2 parts -> discipline s1 parts.
Proof.
  induction parts as [|p rest IH]; intros s1 s2 Hsub; simpl; auto.
  intros (Hne & Hall & Hd). split; [exact Hne|]. split.
  - rewrite Forall_forall in *. auto.
  - apply (IH _ (p :: s2)); [|exact Hd]. simpl. intuition auto.
Qed.

Lemma discipline_b_spec : forall parts seen,
  discipline_b seen parts = true <-> discipline seen parts.
Proof.
  induction parts as [|p rest IH]; intros seen; simpl; [tauto|].
  rewrite !andb_true_iff, Z.ltb_lt, compatible_spec, IH. tauto.
Qed.

(* C09, on D the record is sorted and disjoint and holds, as a set, EXACTLY the
   acknowledged parts: with add_all_in, nothing invented and nothing dropped *)
Theorem record_exact : forall parts ps,
  sorted_disjoint_b ps = true -> discipline ps parts ->
  sorted_disjoint_b (add_all ps parts) = true /\
  (forall q, In q ps \/ In q parts -> In q (add_all ps parts)).
Proof.
  induction parts as [|[b e] rest IH]; intros ps Hs Hd; simpl; [tauto|].
  destruct Hd as (Hne & Hc & Hd).
  destruct (IH (add_part ps b e)) as [IS IK].
  - apply add_part_sorted; auto.
  - apply (discipline_incl _ _ _ (add_part_in ps b e)). exact Hd.
  - split; [exact IS|]. intros q Hq. apply IK.
    pose proof (add_part_keeps ps b e q Hc). simpl in *. tauto.
Qed.

(* companionPartExists adds up the overlaps of the part with the ranges on record *)
Fixpoint overlap_total (ps : list range) (b e : Z) : Z :=
  match ps with
  | [] => 0
  | (pb, pe) :: rest => Z.max 0 (Z.min e pe - Z.max b pb) + overlap_total rest b e
  end.

Lemma overlap_total_nonneg ps b e : 0 <= overlap_total ps b e.
Proof. induction ps as [|[pb pe] r IH]; simpl; lia. Qed.

(* a positive answer means the overlaps (of a prefix, the rest adds nothing
   negative) sum up to the whole length *)
Lemma part_exists_aux_overlap : forall ps b e ov,
  part_exists_aux ps b e ov = true -> e - b <= ov + overlap_total ps b e.
Proof.
  induction ps as [|[pb pe] rest IH]; intros b e ov H; simpl in *.
  - lia.
  - pose proof (overlap_total_nonneg rest b e).
    destruct (Z.ltb_spec 0 (Z.min e pe - Z.max b pb)).
    + destruct (Z.eqb_spec (ov + (Z.min e pe - Z.max b pb)) (e - b)); [|apply IH in H]; lia.
    + apply IH in H. lia.
Qed.

(* in a sorted disjoint record the overlaps with [b,e) above lo cannot exceed its
   length, and reach it only if every byte is covered *)
Lemma overlap_full : forall ps lo b e,
  sorted_disjoint_b ps = true -> lower_bounded lo ps ->
  overlap_total ps b e <= Z.max 0 (e - Z.max b lo) /\
  (e - Z.max b lo <= overlap_total ps b e -> forall i, Z.max b lo <= i < e -> covered ps i).
Proof.
  induction ps as [|[pb pe] rest IH]; intros lo b e Hs Hlb; simpl.
  - split; lia.
  - apply sorted_disjoint_cons in Hs as (Hp & Hlb' & Hs). simpl in Hlb.
    destruct (IH pe b e Hs Hlb') as [IB IC]. clear IH Hs Hlb'. split; [lia|].
    (* lia splits on every max and min in sight: each call sees only what it needs *)
    intros Hfull i Hi. apply covered_cons. destruct (Z_lt_dec i pe).
    + left. clear IC. lia.
    + right. apply IC; [clear IC Hi | clear IC IB Hfull]; lia.
Qed.

(* non-vacuity: a concrete non-trivial history satisfies the discipline *)
Example discipline_example :
  discipline [] [(4, 8); (0, 4); (4, 8); (8, 9)] /\
  complete (add_all [] [(4, 8); (0, 4); (4, 8); (8, 9)]) 9 = true.
Proof.
  split; [apply discipline_b_spec|]; vm_compute; reflexivity.
Qed.

Lemma insert_sorted_covered b e ps i :
  covered (insert_sorted (b, e) ps) i <-> covered ((b, e) :: ps) i.
Proof.
  induction ps as [|[pb pe] rest IH]; simpl; [tauto|].
  destruct (b <=? pb); [tauto|]. rewrite !covered_cons, IH, covered_cons. tauto.
Qed.

Lemma sort_ranges_covered ps i : covered (sort_ranges ps) i <-> covered ps i.
Proof.
  induction ps as [|[b e] rest IH]; simpl; [tauto|].
  rewrite insert_sorted_covered, !covered_cons, IH. tauto.
Qed.
