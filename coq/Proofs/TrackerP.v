From Coq Require Import List ZArith Bool Lia.
From STS Require Import Model.Queue Model.Tracker Proofs.QueueP.
Import ListNotations.
Open Scope Z_scope.

Lemma in_tset k v m x : In x (tset k v m) -> x = (k, v) \/ In x m.
Proof.
  induction m as [|[k' v'] r IH]; simpl; [intros [<-|[]]; auto|].
  destruct (name_eqb k' k); simpl; intros [<-|H]; auto. destruct (IH H); auto.
Qed.

Lemma tget_in k m e : tget k m = Some e -> In (k, e) m.
Proof.
  induction m as [|[k' v'] r IH]; simpl; [discriminate|].
  destruct (name_eqb_spec k' k) as [->|_]; [intros [= ->]|]; auto.
Qed.

(* bytes acknowledged for version (n, h) by a list of parts *)
Fixpoint acked (n h : name) (ps : list tpart) : Z :=
  match ps with
  | [] => 0
  | p :: r => (if name_eqb (tp_name p) n && name_eqb (tp_hash p) h then tp_len p else 0) + acked n h r
  end.

Lemma acked_app n h a b : acked n h (a ++ b) = acked n h a + acked n h b.
Proof. induction a as [|p r IH]; simpl; [reflexivity | rewrite IH; lia]. Qed.

Lemma acked_nonneg n h ps : Forall (fun p => 0 <= tp_len p) ps -> 0 <= acked n h ps.
Proof.
  induction 1 as [|p r Hp _ IH]; simpl; [lia|].
  destruct (name_eqb (tp_name p) n && name_eqb (tp_hash p) h); lia.
Qed.

Lemma acked_snoc ps p :
  acked (tp_name p) (tp_hash p) (ps ++ [p]) = acked (tp_name p) (tp_hash p) ps + tp_len p.
Proof. rewrite acked_app. simpl. rewrite !name_eqb_refl. simpl. lia. Qed.

(* an entry never counts more than was acknowledged for its version, and its size is the
   send size some acknowledged part of that version announced *)
Definition good (ps : list tpart) (n : name) (e : tentry) : Prop :=
  te_sent e <= acked n (te_hash e) ps /\
  exists p, In p ps /\ tp_name p = n /\ tp_hash p = te_hash e /\ tp_send p = te_size e.

(* a file is logged / handed to the poller only for a good entry that is complete *)
Definition evgood (ps : list tpart) (ev : tev) : Prop :=
  match ev with
  | TLogged n h | THanded n h => exists e, good ps n e /\ te_hash e = h /\ te_size e <= te_sent e
  end.

Definition tinv (ps : list tpart) (st : tprog * list tev) : Prop :=
  Forall (fun p => 0 <= tp_len p) ps /\
  (forall n e, In (n, e) (fst st) -> good ps n e) /\ (forall ev, In ev (snd st) -> evgood ps ev).

Lemma good_mono ps q n e : Forall (fun p => 0 <= tp_len p) q -> good ps n e -> good (ps ++ q) n e.
Proof.
  intros Hq [S [p [Hp R]]]. split.
  - rewrite acked_app. pose proof (acked_nonneg n (te_hash e) q Hq). lia.
  - exists p. split; [apply in_or_app; left; exact Hp | exact R].
Qed.

Lemma evgood_mono ps q ev : Forall (fun p => 0 <= tp_len p) q -> evgood ps ev -> evgood (ps ++ q) ev.
Proof. intros Hq. destruct ev; intros (e & G & R); exists e; auto using good_mono. Qed.

(* a part is counted in an entry of its own version: a new one ... *)
Lemma good_fresh ps p : Forall (fun q => 0 <= tp_len q) ps ->
  good (ps ++ [p]) (tp_name p) (mkte (tp_len p) (tp_send p) (tp_hash p)).
Proof.
  intros Hps. split; cbn [te_sent te_hash te_size].
  - rewrite acked_snoc. pose proof (acked_nonneg (tp_name p) (tp_hash p) ps Hps). lia.
  - exists p. auto using in_or_app, in_eq.
Qed.

(* ... or the one on record *)
Lemma good_add ps p e : good ps (tp_name p) e -> te_hash e = tp_hash p ->
  good (ps ++ [p]) (tp_name p) (mkte (te_sent e + tp_len p) (te_size e) (te_hash e)).
Proof.
  intros [S [q [Hq R]]] E. split; cbn [te_sent te_hash te_size].
  - rewrite E in *. rewrite acked_snoc. lia.
  - exists q. auto using in_or_app.
Qed.

Lemma tinv_track_part ps st p :
  0 <= tp_len p -> tinv ps st -> tinv (ps ++ [p]) (track_part st p).
Proof.
  intros Hp (Hps & IM & IE). destruct st as [m evs]. cbn [fst snd] in *.
  assert (Hq : Forall (fun q => 0 <= tp_len q) [p]) by auto.
  unfold track_part. set (e1 := mkte _ _ _).   (* the entry that is stored, [e1] in [track_part] *)
  assert (G1 : good (ps ++ [p]) (tp_name p) e1).
  { subst e1. destruct (tget (tp_name p) m) as [e|] eqn:G; [|exact (good_fresh ps p Hps)].
    destruct (name_eqb_spec (te_hash e) (tp_hash p)) as [E|_]; [|exact (good_fresh ps p Hps)].
    exact (good_add ps p e (IM _ _ (tget_in _ _ _ G)) E). }
  split; [|split]; cbn [fst snd].
  - apply Forall_app; auto.
  - intros n e Hin. apply in_tset in Hin as [[= -> ->] | Hin]; auto using good_mono.
  - intros ev Hin.
    destruct (te_size e1 <=? te_sent e1) eqn:L; [apply in_app_or in Hin as [Hin | [<- | []]]|];
      auto using evgood_mono.
    exists e1. apply Z.leb_le in L. auto.
Qed.

Lemma tinv_hand_off ps st : tinv ps st -> tinv ps (hand_off st).
Proof.
  intros (Hps & IM & IE). destruct st as [m evs]. unfold hand_off. split; [|split]; cbn [fst snd] in *; auto.
  - intros n e Hin. apply filter_In in Hin as [Hin _]. auto.
  - intros ev Hin. apply in_app_or in Hin as [Hin | Hin]; auto.
    apply in_map_iff in Hin as [[n e] [<- Hin]]. apply filter_In in Hin as [Hin L].
    exists e. apply Z.leb_le in L. auto.
Qed.

Lemma tinv_track_parts : forall parts ps st,
  Forall (fun q => 0 <= tp_len q) parts -> tinv ps st -> tinv (ps ++ parts) (fold_left track_part parts st).
Proof.
  induction parts as [|p r IH]; intros ps st Hr I; simpl.
  - rewrite app_nil_r. exact I.
  - inversion Hr. rewrite (app_assoc ps [p] r : ps ++ p :: r = _). auto using tinv_track_part.
Qed.

Lemma tinv_track_payloads : forall pls ps st,
  Forall (Forall (fun q => 0 <= tp_len q)) pls -> tinv ps st ->
  tinv (ps ++ concat pls) (fold_left track_payload pls st).
Proof.
  induction pls as [|pl r IH]; intros ps st Hr I; simpl.
  - rewrite app_nil_r. exact I.
  - inversion Hr. rewrite app_assoc. apply IH; [assumption|].
    apply tinv_track_parts; [assumption|]. apply tinv_hand_off. exact I.
Qed.

(* C08, second sentence, for every sequence of forwarded payloads: whatever is written to the
   sent log or handed to the poller, the bytes acknowledged for that very version add up to
   (at least) the send size announced for it *)
Theorem tinv_track_run : forall pls,
  Forall (Forall (fun q => 0 <= tp_len q)) pls -> tinv (concat pls) (track_run pls).
Proof.
  intros pls Hpl. apply tinv_hand_off, (tinv_track_payloads pls []); [exact Hpl|].
  split; [|split]; [constructor | intros n e [] | intros ev []].
Qed.

Definition iv := (Z * Z)%type.
Definition within (a b : Z) (i : iv) : Prop := a <= fst i /\ fst i <= snd i /\ snd i <= b.
Definition disj (i j : iv) : Prop := snd i <= fst j \/ snd j <= fst i.
Fixpoint total (l : list iv) : Z := match l with [] => 0 | i :: r => (snd i - fst i) + total r end.

Lemma fop_filter {A} (R : A -> A -> Prop) f : forall l, ForallOrdPairs R l -> ForallOrdPairs R (filter f l).
Proof.
  induction 1 as [|a l Ha _ IH]; simpl; [constructor|].
  destruct (f a); [|exact IH]. constructor; [|exact IH].
  apply Forall_forall. intros x Hx. apply filter_In in Hx as [Hx _].
  rewrite Forall_forall in Ha. apply Ha. exact Hx.
Qed.

Lemma filter_length_le {A} (f : A -> bool) l : (length (filter f l) <= length l)%nat.
Proof. induction l as [|a r IH]; simpl; [lia|]. destruct (f a); simpl; lia. Qed.

Lemma total_filter f l : total l = total (filter f l) + total (filter (fun x => negb (f x)) l).
Proof. induction l as [|i r IH]; simpl; [reflexivity|]. destruct (f i); simpl; lia. Qed.

(* the first range splits the others into those on its left and those on its right *)
Lemma total_le : forall n l a b, (length l <= n)%nat -> a <= b ->
  Forall (within a b) l -> ForallOrdPairs disj l -> total l <= b - a.
Proof.
  induction n as [|n IH]; intros [|i r] a b Hn Hab Hw Hd; simpl in *; try lia.
  inversion Hw as [|? ? (I1 & _ & I3) Hr]; subst. inversion Hd as [|? ? Hdi Hdr]; subst.
  rewrite Forall_forall in Hr, Hdi.
  set (f := fun j : iv => snd j <=? fst i).
  pose proof (filter_length_le f r). pose proof (filter_length_le (fun x => negb (f x)) r).
  assert (HL : total (filter f r) <= fst i - a).
  { apply IH; [lia | exact I1 | | apply fop_filter, Hdr].
    apply Forall_forall. intros j Hj. apply filter_In in Hj as [Hj Hf]. apply Z.leb_le in Hf.
    destruct (Hr j Hj) as (J1 & J2 & J3). repeat split; assumption. }
  assert (HR : total (filter (fun x => negb (f x)) r) <= b - snd i).
  { apply IH; [lia | exact I3 | | apply fop_filter, Hdr].
    apply Forall_forall. intros j Hj. apply filter_In in Hj as [Hj Hf]. apply negb_true_iff, Z.leb_gt in Hf.
    destruct (Hr j Hj) as (_ & J2 & J3). destruct (Hdi j Hj) as [D | D]; [|lia]. repeat split; assumption. }
  rewrite (total_filter f r). lia.
Qed.

(* a point is inside one of the ranges or [x, x+1) is one more range disjoint from all of them *)
Lemma covered_or_apart x : forall l,
  (exists i, In i l /\ fst i <= x < snd i) \/ Forall (disj (x, x + 1)) l.
Proof.
  induction l as [|i r [[j [Hj Hx]]|IH]]; [right; constructor | left; exists j; simpl; auto|].
  destruct (Z_le_gt_dec (fst i) x), (Z_lt_ge_dec x (snd i));
    [left; exists i; simpl; auto | right; constructor; [unfold disj; simpl; lia|exact IH] ..].
Qed.

Theorem disjoint_ranges_adding_up_cover : forall a b l x,
  Forall (within a b) l -> ForallOrdPairs disj l -> b - a <= total l ->
  a <= x < b -> exists i, In i l /\ fst i <= x < snd i.
Proof.
  intros a b l x Hw Hd Ht Hx. destruct (covered_or_apart x l) as [H|Ha]; [exact H|].
  (* otherwise [x, x+1) :: l is a disjoint family inside [a, b) of total 1 + total l *)
  assert (total ((x, x + 1) :: l) <= b - a); [|simpl in *; lia].
  apply (total_le (S (length l))); [reflexivity | lia | | constructor; assumption].
  constructor; [unfold within; simpl; lia|exact Hw].
Qed.
