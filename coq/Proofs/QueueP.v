From Coq Require Import List ZArith Bool Lia Permutation.
From STS Require Import Model.Chunk Model.Queue.
Import ListNotations.
Open Scope Z_scope.

Lemma name_eqb_eq : forall a b, name_eqb a b = true <-> a = b.
Proof.
  induction a as [|x a IH]; destruct b as [|y b]; simpl; split; intros H; try discriminate; auto.
  - apply andb_true_iff in H as [H1 H2]. apply Z.eqb_eq in H1. apply IH in H2. subst; auto.
  - inversion H; subst. rewrite Z.eqb_refl. simpl. apply IH; auto.
Qed.

Lemma name_eqb_refl a : name_eqb a a = true.
Proof. apply name_eqb_eq; auto. Qed.

Lemma name_eqb_spec a b : reflect (a = b) (name_eqb a b).
Proof. apply iff_reflect. symmetry. apply name_eqb_eq. Qed.

Lemma name_eqb_false_neq a b : name_eqb a b = false <-> a <> b.
Proof. destruct (name_eqb_spec a b); split; congruence. Qed.

Lemma name_ltb_cons x a y b :
  name_ltb (x :: a) (y :: b) = true <-> x < y \/ x = y /\ name_ltb a b = true.
Proof.
  simpl. destruct (Z.ltb_spec x y); [intuition|]. destruct (Z.ltb_spec y x); [|intuition lia].
  split; [discriminate | lia].
Qed.

Lemma name_ltb_irrefl : forall a, name_ltb a a = false.
Proof. induction a as [|x a IH]; simpl; auto. rewrite Z.ltb_irrefl. auto. Qed.

Lemma name_ltb_trans : forall a b c,
  name_ltb a b = true -> name_ltb b c = true -> name_ltb a c = true.
Proof.
  induction a as [|x a IH]; destruct b as [|y b]; destruct c as [|z c]; auto; try discriminate.
  intros H1 H2. apply name_ltb_cons in H1, H2. apply name_ltb_cons.
  destruct H1 as [H1|[-> H1]], H2 as [H2|[<- H2]]; eauto; left; lia.
Qed.

Lemma name_ltb_total : forall a b,
  name_ltb a b = false -> name_ltb b a = false -> a = b.
Proof.
  induction a as [|x a IH]; destruct b as [|y b]; simpl; intros H1 H2; auto; try discriminate.
  destruct (x <? y) eqn:Exy; [discriminate|]. destruct (y <? x) eqn:Eyx; [discriminate|].
  assert (x = y) by lia. subst. f_equal. apply IH; auto.
Qed.

Lemma name_ltb_asym a b : name_ltb a b = true -> name_ltb b a = false.
Proof.
  intros H. destruct (name_ltb b a) eqn:E; auto.
  pose proof (name_ltb_trans _ _ _ H E) as T. rewrite name_ltb_irrefl in T. discriminate.
Qed.

(* the configured order: after_b is a strict order on (time, name) keys,
   total when the tag is ordered *)

Definition ordered (order : Z) : Prop := order = OFIFO \/ order = OLIFO \/ order = OALPHA.

Lemma after_b_keys order x x' y y' :
  fname x' = fname x -> ftime x' = ftime x -> fname y' = fname y -> ftime y' = ftime y ->
  after_b order x' y' = after_b order x y.
Proof. intros Hn Ht Hn' Ht'. unfold after_b. rewrite Hn, Ht, Hn', Ht'. reflexivity. Qed.

Lemma le_order_keys order x y y' :
  fname y' = fname y -> ftime y' = ftime y -> le_order order x y' = le_order order x y.
Proof. intros Hn Ht. unfold le_order. f_equal. apply after_b_keys; auto. Qed.

Lemma after_b_irrefl order f : after_b order f f = false.
Proof.
  unfold after_b. destruct (order =? OALPHA); [apply name_ltb_irrefl|].
  destruct ((order =? OFIFO) || (order =? OLIFO)); auto.
  rewrite Z.eqb_refl. apply name_ltb_irrefl.
Qed.

(* after_b x y = true means y < x.  The times are compared pairwise: where
   they agree the names decide, the rest is arithmetic. *)
Lemma after_b_trans order x y z :
  after_b order x y = true -> after_b order y z = true -> after_b order x z = true.
Proof.
  unfold after_b. destruct (order =? OALPHA); [eauto using name_ltb_trans|].
  destruct ((order =? OFIFO) || (order =? OLIFO)); [|discriminate].
  destruct (Z.eqb_spec (ftime x) (ftime y)) as [->|Nxy].
  - destruct (ftime y =? ftime z); eauto using name_ltb_trans.
  - destruct (Z.eqb_spec (ftime y) (ftime z)) as [<-|_].
    + destruct (Z.eqb_spec (ftime x) (ftime y)); [contradiction | auto].
    + intros A B. destruct (order =? OFIFO); destruct (Z.eqb_spec (ftime x) (ftime z)); lia.
Qed.

Lemma after_b_total order x y :
  ordered order -> after_b order x y = false -> after_b order y x = false ->
  (ftime x = ftime y \/ order = OALPHA) /\ fname x = fname y.
Proof.
  unfold after_b. intros [->|[->| ->]]; simpl; [| |auto using name_ltb_total];
    rewrite (Z.eqb_sym (ftime y)); destruct (Z.eqb_spec (ftime x) (ftime y));
    auto using name_ltb_total; lia.
Qed.

Lemma le_order_trans order x y z :
  ordered order -> le_order order x y = true -> le_order order y z = true -> le_order order x z = true.
Proof.
  intros Ho. unfold le_order. rewrite !negb_true_iff. intros H1 H2.
  destruct (after_b order x z) eqn:E; auto.
  destruct (after_b order z y) eqn:E3.
  - (* y < z < x *) rewrite (after_b_trans order x z y E E3) in H1. discriminate.
  - (* y and z have the same key *)
    destruct (after_b_total order y z Ho H2 E3) as [Hk Hn].
    rewrite <- H1, <- E. unfold after_b. rewrite Hn. destruct Hk as [->| ->]; reflexivity.
Qed.

Lemma after_b_le order x y : after_b order x y = true -> le_order order y x = true.
Proof.
  intros H. unfold le_order. destruct (after_b order y x) eqn:E; auto.
  pose proof (after_b_trans _ _ _ _ H E) as T. rewrite after_b_irrefl in T. discriminate.
Qed.

Lemma after_then_le order x y z :
  after_b order x y = true -> le_order order x z = true -> le_order order y z = true.
Proof.
  unfold le_order. intros H1 H2. destruct (after_b order y z) eqn:E; auto.
  rewrite (after_b_trans _ _ _ _ H1 E) in H2. discriminate.
Qed.

Lemma files_sorted_cons order x r :
  files_sorted order (x :: r) = true <->
  Forall (fun y => le_order order x y = true) r /\ files_sorted order r = true.
Proof. simpl. rewrite andb_true_iff, forallb_forall, Forall_forall. tauto. Qed.

Lemma files_sorted_app_r order a b : files_sorted order (a ++ b) = true -> files_sorted order b = true.
Proof. induction a as [|x a IH]; simpl; auto. intros H. apply andb_true_iff in H as [_ H]. auto. Qed.

Lemma files_sorted_keys order x x' r :
  fname x' = fname x -> ftime x' = ftime x ->
  files_sorted order (x' :: r) = files_sorted order (x :: r).
Proof. intros Hn Ht. simpl. unfold le_order, after_b. rewrite Hn, Ht. reflexivity. Qed.

(* each insertion of the model (a file into a group, a group into the queue, the
   served group behind its peers) is a permutation of "cons"; where the new
   element lands matters only for the sortedness lemmas *)
Lemma insert_file_perm order f l : Permutation (insert_file order f l) (f :: l).
Proof.
  induction l as [|x r IH]; simpl; [reflexivity|].
  destruct (after_b order x f); [reflexivity|]. rewrite IH. apply perm_swap.
Qed.

Lemma insert_file_sorted order f l :
  files_sorted order l = true -> files_sorted order (insert_file order f l) = true.
Proof.
  induction l as [|x r IH]; intros Hs; simpl; auto.
  destruct (after_b order x f) eqn:E; apply files_sorted_cons.
  - split; [|exact Hs]. apply files_sorted_cons in Hs as [Hx _].
    constructor; [apply after_b_le; exact E|].
    eapply Forall_impl; [|exact Hx]. intros y. apply after_then_le. exact E.
  - apply files_sorted_cons in Hs as [Hx Hr]. split; [|auto].
    apply (Permutation_Forall (Permutation_sym (insert_file_perm _ _ _))).
    constructor; [|exact Hx]. unfold le_order. rewrite E. reflexivity.
Qed.

Lemma remove_name_incl n l y : In y (remove_name n l) -> In y l.
Proof.
  induction l as [|x r IH]; simpl; auto. destruct (name_eqb (fname x) n); simpl; [auto|].
  intros [H|H]; auto.
Qed.

Lemma remove_name_sorted order n l :
  files_sorted order l = true -> files_sorted order (remove_name n l) = true.
Proof.
  induction l as [|x r IH]; intros Hs; simpl; auto.
  apply files_sorted_cons in Hs as [Hx Hr].
  destruct (name_eqb (fname x) n); auto.
  apply files_sorted_cons. split; [|auto].
  rewrite Forall_forall in *. intros y Hy. apply Hx. eapply remove_name_incl; eauto.
Qed.

(* all files of a group's pending list respect the order (ordered tags) *)
Definition group_sorted (g : group) : Prop :=
  ordered (torder (gtag g)) -> files_sorted (torder (gtag g)) (gfiles g) = true.

Lemma group_push_files g f :
  gfiles (group_push g f) =
  insert_file (torder (gtag g)) f
    (if has_name (fname f) (gfiles g) then remove_name (fname f) (gfiles g) else gfiles g) /\
  gtag (group_push g f) = gtag g /\ gname (group_push g f) = gname g /\ gdone (group_push g f) = gdone g.
Proof.
  unfold group_push. destruct (has_name (fname f) (gfiles g)).
  - destruct (remove_name (fname f) (gfiles g)); cbn; auto.
  - cbn; auto.
Qed.

Lemma skip_alloc_spec : forall fs k dn k' fs' dn',
  skip_alloc k fs dn = (k', fs', dn') ->
  exists skipped, fs = skipped ++ fs' /\ Forall (fun f => is_alloc f = true) skipped /\
                  dn' = rev (map fname skipped) ++ dn /\
                  k' = match rev skipped with [] => k | s :: _ => Some s end /\
                  (match fs' with f :: _ :: _ => is_alloc f = false | _ => True end).
Proof.
  induction fs as [|f rest IH]; intros k dn k' fs' dn' H.
  - injection H as <- <- <-. exists []. auto.
  - destruct rest as [|f2 rest2]; [injection H as <- <- <-; exists []; auto|].
    cbn [skip_alloc] in H. destruct (is_alloc f) eqn:A; [|injection H as <- <- <-; exists []; auto].
    destruct (IH _ _ _ _ _ H) as (sk & E1 & E2 & E3 & E4 & E5).
    exists (f :: sk). simpl. rewrite <- E1, <- app_assoc. repeat split; auto.
    rewrite E4. destruct (rev sk); reflexivity.
Qed.

(* the group after the clean-up that every Pop starts with *)
Definition skip (g : group) : group :=
  let '(k, fs, dn) := skip_alloc (kept g) (gfiles g) (gdone g) in
  mkgroup (gname g) (gtag g) k fs dn.

Lemma skip_spec g :
  exists skipped, gfiles g = skipped ++ gfiles (skip g) /\
    Forall (fun f => is_alloc f = true) skipped /\
    gdone (skip g) = rev (map fname skipped) ++ gdone g /\
    kept (skip g) = match rev skipped with [] => kept g | s :: _ => Some s end.
Proof.
  unfold skip. destruct (skip_alloc (kept g) (gfiles g) (gdone g)) as [[k fs] dn] eqn:S.
  destruct (skip_alloc_spec _ _ _ _ _ _ S) as (sk & H). exists sk. tauto.
Qed.

Lemma skip_name g : gname (skip g) = gname g.
Proof. unfold skip. destruct (skip_alloc _ _ _) as [[k fs] dn]. reflexivity. Qed.

Lemma skip_tag g : gtag (skip g) = gtag g.
Proof. unfold skip. destruct (skip_alloc _ _ _) as [[k fs] dn]. reflexivity. Qed.

Lemma skip_sorted g : group_sorted g -> group_sorted (skip g).
Proof.
  unfold group_sorted. rewrite skip_tag. intros Hs Ho. destruct (skip_spec g) as (sk & E & _).
  apply (files_sorted_app_r _ sk). rewrite <- E. auto.
Qed.

Lemma allocate_keys f d o l f' : allocate f d = Some (o, l, f') ->
  fname f' = fname f /\ ftime f' = ftime f.
Proof.
  unfold allocate. destruct (frec f).
  - destruct (alloc_rec (fleft f) (fused f) d) as [[[[o' l'] left'] used']|]; [|discriminate].
    intros [= _ _ <-]; auto.
  - destruct (alloc_plain (fsize f) (falloc f) d) as [[o' l'] a']. intros [= _ _ <-]; auto.
Qed.

Definition guard_self (p n : name) : name := if name_eqb p n then [] else p.

Lemma group_pop_inv g now g' o :
  group_pop g now = (g', o) ->
  match o with
  | None => g' = skip g
  | Some out => exists f rest off len f',
      gfiles (skip g) = f :: rest /\ is_alloc f = false /\
      allocate f (tchunk (gtag g)) = Some (off, len, f') /\
      out = mkpop (fname f) off len
              (guard_self (if torder (gtag g) =? ONONE then []
                           else if frec f then fprev f
                           else match kept (skip g) with Some kf => fname kf | None => [] end)
                          (fname f))
              (fsend f) /\
      g' = if is_alloc f'
           then mkgroup (gname g) (gtag g) (Some f') rest (fname f :: gdone (skip g))
           else mkgroup (gname g) (gtag g) (kept (skip g)) (f' :: rest) (gdone (skip g))
  end.
Proof.
  unfold group_pop, skip. destruct (skip_alloc (kept g) (gfiles g) (gdone g)) as [[k fs] dn].
  destruct fs as [|f rest]; [intros [= <- <-]; reflexivity|].
  destruct (is_alloc f) eqn:Af; [intros [= <- <-]; reflexivity|].
  destruct (_ && _ && _); [intros [= <- <-]; reflexivity|].
  destruct (allocate f (tchunk (gtag g))) as [[[off len] f']|] eqn:A; [|intros [= <- <-]; reflexivity].
  destruct (is_alloc f') eqn:Af'; intros [= <- <-]; exists f, rest, off, len, f'; rewrite Af'; auto 6.
Qed.

(* the same in terms of g, for what is emitted: the allocated files in front
   are passed over and the first pending one is served *)
Lemma group_pop_emits g now g' out :
  group_pop g now = (g', Some out) ->
  exists skipped f rest,
    gfiles g = skipped ++ f :: rest /\ Forall (fun x => is_alloc x = true) skipped /\
    is_alloc f = false /\ pname out = fname f /\
    pprev out = guard_self (if torder (gtag g) =? ONONE then []
                            else if frec f then fprev f
                            else match kept (skip g) with Some kf => fname kf | None => [] end)
                           (fname f).
Proof.
  intros H. apply group_pop_inv in H as (f & rest & off & len & _ & Ef & Af & _ & -> & _).
  destruct (skip_spec g) as (sk & E & Hsk & _). exists sk, f, rest. rewrite E, Ef. auto.
Qed.

Lemma group_pop_same g now g' o :
  group_pop g now = (g', o) -> gtag g' = gtag g /\ gname g' = gname g.
Proof.
  intros H. apply group_pop_inv in H. destruct o as [out|].
  - destruct H as (f & rest & _ & _ & f' & _ & _ & _ & _ & ->). destruct (is_alloc f'); auto.
  - subst. auto using skip_tag, skip_name.
Qed.

Definition prio (g : group) : Z := tprio (gtag g).

Fixpoint psorted (l : list Z) : Prop :=
  match l with
  | [] => True
  | x :: r => Forall (fun y => y <= x) r /\ psorted r
  end.

Lemma prio_sorted_spec : forall q, prio_sorted q = true <-> psorted (map prio q).
Proof.
  induction q as [|g r IH]; simpl; [tauto|].
  destruct r as [|h r'].
  - simpl. split; auto.
  - rewrite andb_true_iff, Z.leb_le, IH. cbn [map psorted]. split.
    + intros [H1 [H2 H3]]. split; [|split; auto]. constructor; [exact H1|].
      eapply Forall_impl; [|exact H2]. unfold prio. intros; lia.
    + intros [H1 [H2 H3]]. inversion H1. unfold prio in *. split; auto.
Qed.

Lemma psorted_app_r a b : psorted (a ++ b) -> psorted b.
Proof. induction a as [|x a IH]; simpl; tauto. Qed.

Lemma skip_prio g : prio (skip g) = prio g.
Proof. unfold prio. rewrite skip_tag. reflexivity. Qed.

Lemma group_pop_prio g now g' o : group_pop g now = (g', o) -> prio g' = prio g.
Proof. intros H. unfold prio. apply group_pop_same in H as [-> _]. reflexivity. Qed.

Lemma delay_insert_perm g r : Permutation (delay_insert g r) (g :: r).
Proof.
  induction r as [|h r IH]; simpl; [reflexivity|].
  destruct (tprio (gtag h) =? tprio (gtag g)); [|reflexivity]. rewrite IH. apply perm_swap.
Qed.

Lemma add_group_perm g q : Permutation (add_group g q) (g :: q).
Proof.
  induction q as [|h r IH]; simpl; [reflexivity|].
  destruct (tprio (gtag h) <? tprio (gtag g)); [reflexivity|]. rewrite IH. apply perm_swap.
Qed.

(* in a sorted queue the served group moves within its priority class only *)
Lemma delay_insert_map : forall r g,
  psorted (prio g :: map prio r) -> map prio (delay_insert g r) = prio g :: map prio r.
Proof.
  induction r as [|h r IH]; intros g Hs; simpl; auto.
  destruct (Z.eqb_spec (tprio (gtag h)) (tprio (gtag g))) as [E|]; [|reflexivity].
  simpl. rewrite IH; [unfold prio; rewrite E; reflexivity|].
  simpl in *. destruct Hs as [H1 [_ H3]]. inversion H1. split; auto.
Qed.

Lemma group_ready_pop g now g' o :
  group_pop g now = (g', o) -> group_ready g now = match o with Some _ => true | None => false end.
Proof. unfold group_ready. intros ->. reflexivity. Qed.

(* one Pop: the groups in front of the first ready one are cleaned up, the
   first ready one is served and moved behind its peers *)
Lemma pop_aux_inv : forall q now q' o,
  pop_aux q now = (q', o) ->
  match o with
  | None => Forall (fun h => group_ready h now = false) q /\ q' = map skip q
  | Some out => exists pre g post g', q = pre ++ g :: post /\
      Forall (fun h => group_ready h now = false) pre /\
      group_pop g now = (g', Some out) /\
      q' = map skip pre ++ delay_insert g' post
  end.
Proof.
  induction q as [|g r IH]; intros now q' o H; simpl in H.
  - injection H as <- <-. auto.
  - destruct (group_pop g now) as [g' [out|]] eqn:G.
    + injection H as <- <-. exists [], g, r, g'. auto.
    + destruct (pop_aux r now) as [r' o'] eqn:P. injection H as <- <-.
      assert (R := group_ready_pop _ _ _ _ G).   (* g is not ready: for the first conjunct *)
      apply group_pop_inv in G as ->. apply IH in P. destruct o' as [out|].
      * destruct P as (pre & g0 & post & g0' & -> & F & S & ->).
        exists (g :: pre), g0, post, g0'. auto.
      * destruct P as [F ->]. auto.
Qed.

Lemma pop_aux_map q now q' o :
  psorted (map prio q) -> pop_aux q now = (q', o) -> map prio q' = map prio q.
Proof.
  intros Hs H. apply pop_aux_inv in H. destruct o as [out|].
  - destruct H as (pre & g & post & g' & -> & _ & G & ->). apply group_pop_prio in G.
    rewrite map_app in Hs. apply psorted_app_r in Hs.
    rewrite !map_app, map_map, delay_insert_map; rewrite G; [|exact Hs].
    f_equal. apply map_ext, skip_prio.
  - destruct H as [_ ->]. rewrite map_map. apply map_ext, skip_prio.
Qed.

Lemma add_group_sorted : forall q g, psorted (map prio q) -> psorted (map prio (add_group g q)).
Proof.
  induction q as [|h r IH]; intros g Hs; simpl; [auto|]. destruct Hs as [H1 H2].
  destruct (Z.ltb_spec (tprio (gtag h)) (tprio (gtag g))); simpl; fold (prio h) (prio g) in *.
  - split; [|split; auto]. constructor; [lia|]. eapply Forall_impl; [|exact H1]. simpl. intros; lia.
  - split; [|apply IH; auto].
    apply (Permutation_Forall (Permutation_sym (Permutation_map _ (add_group_perm _ _)))).
    constructor; auto.
Qed.

Lemma find_group_split : forall q n g0,
  find_group n q = Some g0 ->
  gname g0 = n /\
  exists pre post, q = pre ++ g0 :: post /\
    forall g, gname g = n -> replace_group g q = pre ++ g :: post.
Proof.
  induction q as [|h r IH]; intros n g0 H; simpl in H; [discriminate|].
  destruct (name_eqb (gname h) n) eqn:E.
  - injection H as <-. apply name_eqb_eq in E. split; [exact E|]. exists [], r. split; [reflexivity|].
    intros g <-. simpl. rewrite <- E, name_eqb_refl. reflexivity.
  - destruct (IH _ _ H) as (En & pre & post & -> & R). split; [exact En|].
    exists (h :: pre), post. split; [reflexivity|]. intros g Hg. simpl. rewrite Hg, E, R; auto.
Qed.

Definition unique_names (q : queue) : Prop := NoDup (map gname q).

Lemma push_one_sorted q it : psorted (map prio q) -> psorted (map prio (push_one q it)).
Proof.
  destruct it as [[f gn] ot]. unfold push_one. intros Hs.
  destruct (find_group gn q) as [g|] eqn:F.
  - destruct (group_push_files g f) as (_ & Et & En & _).
    destruct (find_group_split _ _ _ F) as (Hn & pre & post & -> & R).
    rewrite R by congruence. rewrite map_app in *. cbn [map] in *. unfold prio at 2. rewrite Et. exact Hs.
  - destruct ot as [t|]; auto. apply add_group_sorted; auto.
Qed.

Lemma push_sorted : forall batch q, psorted (map prio q) -> psorted (map prio (push q batch)).
Proof.
  unfold push. induction batch as [|it r IH]; intros q Hs; simpl; auto.
  apply IH. apply push_one_sorted; auto.
Qed.

(* histories: a property of (queue, operations still to come) that every step
   hands on to the next queue and the rest holds of the final queue *)
Lemma qrun_inv (R : queue -> list qop -> Prop) :
  (forall q op r, R q (op :: r) -> R (fst (qstep q op)) r) ->
  forall ops q q' outs, R q ops -> qrun q ops = (q', outs) -> R q' [].
Proof.
  intros Step. induction ops as [|op r IH]; intros q q' outs HR H; simpl in H.
  - injection H as <- _. exact HR.
  - apply Step in HR. destruct (qstep q op) as [q1 o]. destruct (qrun q1 r) as [q2 os] eqn:E.
    injection H as <- _. exact (IH _ _ _ HR E).
Qed.

Theorem qrun_sorted ops q q' outs :
  prio_sorted q = true -> qrun q ops = (q', outs) -> prio_sorted q' = true.
Proof.
  rewrite !prio_sorted_spec. apply (qrun_inv (fun q0 _ => psorted (map prio q0))).
  intros q0 [b|now] _ Hs; simpl.
  - apply push_sorted, Hs.
  - destruct (pop q0 now) as [q1 o] eqn:P. simpl. rewrite (pop_aux_map _ _ _ _ Hs P). exact Hs.
Qed.

Lemma guard_self_nil n : guard_self [] n = [].
Proof. unfold guard_self. destruct (name_eqb [] n); reflexivity. Qed.

Lemma guard_self_cases p n : guard_self p n = [] \/ guard_self p n = p /\ p <> n.
Proof. unfold guard_self. destruct (name_eqb_spec p n); auto. Qed.

Lemma guard_self_not_self p n : guard_self p n = [] \/ guard_self p n <> n.
Proof. destruct (guard_self_cases p n) as [E|[E N]]; rewrite E; auto. Qed.

(* D-invariant: the kept link is exactly the most recently completed (or
   skipped pre-allocated) file of the group *)
Definition kept_exact (g : group) : Prop :=
  match kept g, gdone g with
  | Some k, d :: _ => fname k = d
  | None, [] => True
  | _, _ => False
  end.

(* what the invariant is for: the name Pop takes from the kept link is the
   newest entry of gdone *)
Lemma kept_exact_hd g :
  kept_exact g -> match kept g with Some kf => fname kf | None => [] end = hd [] (gdone g).
Proof. unfold kept_exact. destruct (kept g), (gdone g); simpl; tauto. Qed.

Lemma skip_kept_exact g : kept_exact g -> kept_exact (skip g).
Proof.
  destruct (skip_spec g) as (sk & _ & _ & Ed & Ek). unfold kept_exact.
  rewrite Ed, Ek, <- map_rev. destruct (rev sk); simpl; auto.
Qed.

Lemma group_pop_kept_exact g now g' o :
  kept_exact g -> group_pop g now = (g', o) -> kept_exact g'.
Proof.
  intros HK H. apply skip_kept_exact in HK. apply group_pop_inv in H.
  destruct o as [out|]; [|subst; exact HK].
  destruct H as (f & rest & off & len & f' & _ & _ & A & _ & ->).
  destruct (is_alloc f'); [|exact HK]. apply allocate_keys in A as [Kn _]. exact Kn.
Qed.

(* pushes keep kept_exact unless they replace the ONLY pending file of a
   group that already completed something (the recorded finding) *)
Definition benign_push (g : group) (f : qfile) : Prop :=
  has_name (fname f) (gfiles g) = true ->
  remove_name (fname f) (gfiles g) = [] -> gdone g = [].

Lemma group_push_kept_exact g f : kept_exact g -> benign_push g f -> kept_exact (group_push g f).
Proof.
  unfold kept_exact, benign_push, group_push. intros HK Hb.
  destruct (has_name (fname f) (gfiles g)) eqn:Hh; simpl; auto.
  destruct (remove_name (fname f) (gfiles g)) eqn:R; simpl; auto.
  rewrite (Hb eq_refl eq_refl). auto.
Qed.

Lemma pop_aux_kept_exact q now q' o :
  Forall kept_exact q -> pop_aux q now = (q', o) -> Forall kept_exact q'.
Proof.
  intros HF H. apply pop_aux_inv in H.
  assert (Hsk : forall l, Forall kept_exact l -> Forall kept_exact (map skip l)).
  { intros l Hl. apply Forall_map. eapply Forall_impl; [|exact Hl]. exact skip_kept_exact. }
  destruct o as [out|]; [|destruct H as [_ ->]; auto].
  destruct H as (pre & g & post & g' & -> & _ & G & ->).
  apply Forall_app in HF as [Hp Hg]. inversion Hg; subst.
  apply Forall_app. split; [auto|]. apply (Permutation_Forall (Permutation_sym (delay_insert_perm _ _))).
  constructor; [eapply group_pop_kept_exact; eauto | assumption].
Qed.

Definition benign_item (q : queue) (it : pushitem) : Prop :=
  let '(f, gn, _) := it in
  match find_group gn q with Some g => benign_push g f | None => True end.

Lemma push_one_kept_exact q it :
  Forall kept_exact q -> benign_item q it -> Forall kept_exact (push_one q it).
Proof.
  destruct it as [[f gn] ot]. unfold push_one, benign_item. intros HF Hb.
  destruct (find_group gn q) as [g|] eqn:F.
  - destruct (group_push_files g f) as (_ & _ & En & _).
    destruct (find_group_split _ _ _ F) as (Hn & pre & post & -> & R).
    rewrite R by congruence. apply Forall_app in HF as [Hp Hg]. inversion Hg.
    apply Forall_app. split; [auto|]. constructor; [apply group_push_kept_exact|]; auto.
  - destruct ot as [t|]; auto. apply (Permutation_Forall (Permutation_sym (add_group_perm _ _))).
    constructor; [exact I | exact HF].
Qed.

(* histories on D: every pushed item is benign at the moment it is pushed *)
Fixpoint benign_batch (q : queue) (b : list pushitem) : Prop :=
  match b with
  | [] => True
  | it :: r => benign_item q it /\ benign_batch (push_one q it) r
  end.

Fixpoint benign_history (q : queue) (ops : list qop) : Prop :=
  match ops with
  | [] => True
  | QPush b :: r => benign_batch q b /\ benign_history (push q b) r
  | QPop now :: r => benign_history (fst (pop q now)) r
  end.

Lemma push_kept_exact : forall b q,
  Forall kept_exact q -> benign_batch q b -> Forall kept_exact (push q b).
Proof.
  unfold push. induction b as [|it r IH]; intros q HF Hb; simpl; auto.
  destruct Hb as [H1 H2]. apply IH; auto. apply push_one_kept_exact; auto.
Qed.

Theorem qrun_kept_exact ops q q' outs :
  Forall kept_exact q -> benign_history q ops -> qrun q ops = (q', outs) -> Forall kept_exact q'.
Proof.
  intros HF Hb H. apply (qrun_inv (fun q0 r => Forall kept_exact q0 /\ benign_history q0 r)) in H; [apply H | | auto].
  intros q0 [b|now] r [HF0 Hb0]; simpl in *.
  - destruct Hb0 as [Hb1 Hb2]. auto using push_kept_exact.
  - split; [|exact Hb0]. destruct (pop q0 now) as [q1 o] eqn:P. exact (pop_aux_kept_exact _ _ _ _ HF0 P).
Qed.
