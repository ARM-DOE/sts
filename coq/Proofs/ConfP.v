From Coq Require Import List ZArith Bool Lia.
From STS Require Import Model.Conf.
Import ListNotations.
Open Scope Z_scope.

Lemma copy_plain_nth : forall t s i, (i < length t)%nat ->
  nth i (copy_plain t s) 0 = if nth i t 0 =? 0 then nth i s 0 else nth i t 0.
Proof.
  induction t as [|x t IH]; intros s i Hi; simpl in Hi; [lia|]. destruct s as [|y s].
  - cbn [copy_plain]. destruct (Z.eqb_spec (nth i (x :: t) 0) 0) as [->|_]; [destruct i|]; reflexivity.
  - destruct i as [|j]; simpl; auto. apply IH; lia.
Qed.

Lemma copy_plain_length t s : length (copy_plain t s) = length t.
Proof. revert s. induction t as [|x t IH]; intros [|y s]; simpl; auto. Qed.

Lemma copy_plain_idem : forall t s, copy_plain (copy_plain t s) s = copy_plain t s.
Proof.
  induction t as [|x t IH]; intros [|y s]; simpl; auto.
  rewrite IH. destruct (x =? 0) eqn:E.
  - destruct (y =? 0) eqn:E2; auto.
  - rewrite E. reflexivity.
Qed.

Theorem propagate_step : forall prev s rest,
  propagate_from prev (s :: rest) = inherit s prev :: propagate_from (inherit s prev) rest.
Proof. reflexivity. Qed.

(* a source as it takes effect, read off the document and the predecessor: a marker
   (stat-payload, error-backoff) lets the document's value stand, whatever it is;
   without one (include-hidden, the plain options) a zero value is taken for omitted *)
Lemma inherit_parse d prev :
  inherit (parse_src d) prev =
  mksc (copy_plain (d_plain d) (c_plain prev))
       (if d_stat d =? T_FALSE then false else (d_stat d =? T_TRUE) || c_stat prev)
       (d_stat d =? T_FALSE)
       ((d_hidden d =? T_TRUE) || c_hidden prev)
       (match d_backoff d with Some v => v | None => c_backoff prev end)
       (match d_backoff d with Some _ => true | None => false end).
Proof.
  unfold inherit, parse_src; simpl. f_equal.
  - destruct (Z.eqb_spec (d_stat d) T_FALSE) as [->|_]; reflexivity.
  - destruct (d_backoff d); reflexivity.
Qed.

Lemma inherit_tag_parse d def :
  inherit_tag (parse_tag d) def =
  mktc (copy_plain (td_plain d) (tc_plain def))
       (if td_delete d =? T_FALSE then false else (td_delete d =? T_TRUE) || tc_delete def)
       (td_delete d =? T_FALSE).
Proof.
  unfold inherit_tag, parse_tag; simpl.
  destruct (Z.eqb_spec (td_delete d) T_FALSE) as [->|_]; reflexivity.
Qed.

Theorem omitted_delete_inherited : forall d def,
  td_delete d = T_ABSENT -> tc_delete (inherit_tag (parse_tag d) def) = tc_delete def.
Proof. intros d def H. rewrite inherit_tag_parse, H. reflexivity. Qed.

(* the first source takes effect as written: as if it inherited from a source that gives nothing *)
Definition no_conf : src_conf := mksc [] false false false 0 false.

Lemma inherit_none c : inherit c no_conf = c.
Proof.
  destruct c as [pl st ss hd bo bs]; unfold inherit; simpl. f_equal.
  - destruct pl; reflexivity.
  - destruct ss, st; reflexivity.
  - destruct hd; reflexivity.
  - destruct bs; [reflexivity|]. destruct (Z.eqb_spec bo 0); congruence.
Qed.

Lemma propagate_from_none l : propagate_from no_conf l = propagate l.
Proof. destruct l as [|x r]; simpl; [|rewrite inherit_none]; reflexivity. Qed.

Section Reencode.
Variable fmt6 : Z -> Z.

(* written out and read again after the same predecessor, a source takes effect as before; the one
   value that passes through "%f" + ParseFloat on the way is the error-backoff the document gave
   itself (an inherited one has no marker and is not written) *)
Lemma reinherit d prev : (forall v, d_backoff d = Some v -> fmt6 v = v) ->
  inherit (parse_src (marshal_src fmt6 (inherit (parse_src d) prev))) prev = inherit (parse_src d) prev.
Proof.
  intros K. rewrite !inherit_parse. simpl. f_equal.
  - apply copy_plain_idem.
  - destruct (d_stat d =? T_FALSE), (d_stat d =? T_TRUE), (c_stat prev); reflexivity.
  - destruct (d_stat d =? T_FALSE), (d_stat d =? T_TRUE), (c_stat prev); reflexivity.
  - destruct (d_hidden d =? T_TRUE), (c_hidden prev); reflexivity.
  - destruct (d_backoff d) as [v|]; [apply K|]; reflexivity.
  - destruct (d_backoff d); reflexivity.
Qed.

Lemma propagate_from_reencode : forall docs prev,
  (forall d v, In d docs -> d_backoff d = Some v -> fmt6 v = v) ->
  propagate_from prev (map parse_src (map (marshal_src fmt6) (propagate_from prev (map parse_src docs)))) =
  propagate_from prev (map parse_src docs).
Proof.
  induction docs as [|d r IH]; intros prev Hf; simpl; [reflexivity|].
  rewrite reinherit, IH by eauto using in_eq, in_cons. reflexivity.
Qed.

(* C19: re-encoding is a fixed point as soon as the error-backoff values WRITTEN in the
   documents survive the "%f" round trip (inherited ones are not written again) *)
Theorem reencode_fixpoint_written : forall docs,
  (forall d v, In d docs -> d_backoff d = Some v -> fmt6 v = v) ->
  reencode fmt6 docs = effective docs.
Proof.
  intros docs Hf. unfold reencode, effective. rewrite <- !propagate_from_none.
  apply propagate_from_reencode, Hf.
Qed.

End Reencode.

Section Tagging.
Variable has_pattern : nat -> bool.
Variable matches name_is : nat -> list Z -> bool.

Lemma tagger_from_spec : forall fuel i s k,
  tagger_from has_pattern matches name_is i fuel s = Some k ->
  (i <= k < i + fuel)%nat /\ has_pattern k = true /\ (name_is k s = true \/ matches k s = true) /\
  forall j, (i <= j < k)%nat -> has_pattern j && (name_is j s || matches j s) = false.
Proof.
  induction fuel as [|f IH]; intros i s k H; simpl in H; [discriminate|].
  destruct (has_pattern i && (name_is i s || matches i s)) eqn:E.
  - inversion H; subst. apply andb_true_iff in E as [E1 E2]. apply orb_true_iff in E2.
    repeat split; auto; lia.
  - destruct (IH _ _ _ H) as [A [B [C D]]]. repeat split; auto; try lia.
    intros j Hj. destruct (Nat.eq_dec j i) as [->|Hne]; auto. apply D. lia.
Qed.

(* when the tagger finds nothing, no pattern tag matches: the default tag's settings apply *)
Theorem tagger_none_means_default : forall fuel i s,
  tagger_from has_pattern matches name_is i fuel s = None ->
  forall j, (i <= j < i + fuel)%nat -> has_pattern j && (name_is j s || matches j s) = false.
Proof.
  induction fuel as [|f IH]; intros i s H j Hj; [lia|]. simpl in H.
  destruct (has_pattern i && (name_is i s || matches i s)) eqn:E; [discriminate|].
  destruct (Nat.eq_dec j i) as [->|Hne]; auto. apply (IH (S i) s H). lia.
Qed.
End Tagging.

Lemma queue_chunk_explicit c b : c <> 0 -> queue_chunk c b = c.
Proof. intros H. unfold queue_chunk. destruct (Z.eqb_spec c 0); [contradiction | reflexivity]. Qed.

Lemma queue_chunk_omitted b : queue_chunk 0 b = b.
Proof. reflexivity. Qed.

Lemma tags_chunks_in : forall l x, In x (tags_chunks l) -> In x l.
Proof.
  intros [|d r] x H; [exact H|]. cbn [tags_chunks] in H. destruct H as [<-|H]; [left; reflexivity|].
  apply in_map_iff in H. destruct H as [c [Hc Hin]].
  destruct (c =? 0); subst; [left; reflexivity | right; exact Hin].
Qed.

(* every tag chunk-size written anywhere in the document *)
Definition written_chunks (l : list csrc) : list Z :=
  concat (map (fun s => match cs_tags s with Some x => x | None => [] end) l).

Lemma written_chunks_cons s l :
  written_chunks (s :: l) = match cs_tags s with Some x => x | None => [] end ++ written_chunks l.
Proof. reflexivity. Qed.

Lemma written_chunks_app l1 l2 : written_chunks (l1 ++ l2) = written_chunks l1 ++ written_chunks l2.
Proof. unfold written_chunks. rewrite map_app. apply concat_app. Qed.

(* the row of source number |pre|: chunked with its own bin-size when it gives one; its tag list,
   when not its own, is what the sources before it leave behind: chunk-sizes written by them *)
Lemma chunk_row : forall pre pb pt s post,
  exists b pt',
    nth (length pre) (chunk_table_from pb pt (pre ++ s :: post)) [] =
      map (fun c => queue_chunk c b) (match cs_tags s with Some x => tags_chunks x | None => pt' end) /\
    (cs_bin s <> 0 -> b = cs_bin s) /\
    (forall x, In x pt' -> In x pt \/ In x (written_chunks pre)).
Proof.
  induction pre as [|a pre IH]; intros pb pt s post.
  - cbn [app length nth chunk_table_from]. eexists _, pt. split; [reflexivity|]. split; [|auto].
    intros Hb%Z.eqb_neq. rewrite !Hb. reflexivity.
  - cbn [app length nth chunk_table_from].
    destruct (IH (if cs_bin a =? 0 then pb else cs_bin a)
                 (match cs_tags a with Some x => tags_chunks x | None => pt end) s post)
      as (b & pt' & Hrow & Hb & Hpt).
    exists b, pt'. split; [exact Hrow|]. split; [exact Hb|].
    intros x Hx. rewrite written_chunks_cons, in_app_iff.
    destruct (Hpt x Hx) as [H|H]; [|auto]. destruct (cs_tags a); [apply tags_chunks_in in H|]; auto.
Qed.

Example chunk_table_two_sources :
  chunk_table [mkcs 1048576 (Some [0; 0; 32768]); mkcs 65536 None; mkcs 0 (Some [0]); mkcs 0 None] =
  [[1048576; 1048576; 32768]; [65536; 65536; 32768]; [65536]; [65536]].
Proof. reflexivity. Qed.

(* row number |pre| is the head row of the rest, computed from SOME lists left by [pre]: enough,
   since a source that gives its own lists and tags does not look at them *)
Lemma ignore_row : forall pre pinc pign ptags l,
  exists a b c,
    nth (length pre) (ignore_table_from pinc pign ptags (pre ++ l)) ([], []) =
    nth 0 (ignore_table_from a b c l) ([], []).
Proof.
  induction pre as [|x pre IH]; intros pinc pign ptags l.
  - exists pinc, pign, ptags. reflexivity.
  - cbn [app length ignore_table_from]. destruct (match is_lists x with Some y => y | None => _ end).
    apply IH.
Qed.

Example ignore_table_two_sources :
  ignore_table [mkis (Some ([1; 2], [3; 4; 5])) (Some [(200, false); (201, true)]);
                mkis None (Some [(200, false); (202, true)])] =
  [([1; 2], [3; 4; 5; 100; 101; 201]); ([1; 2], [3; 4; 5; 100; 101; 202])].
Proof. reflexivity. Qed.
