From Coq Require Import List ZArith Bool Lia.
From STS Require Import Model.Prune.
Local Open Scope nat_scope.

Lemma removable_eq f t d :
  removable (S f) t d =
  pn_dir d && pn_old d &&
  forallb (fun c => if child_path (pn_path d) (pn_path c) then pn_dir c && removable f t c else true) t.
Proof. reflexivity. Qed.

Lemma removable_dir_old fuel t d : removable fuel t d = true -> pn_dir d = true /\ pn_old d = true.
Proof.
  destruct fuel as [|f]; [discriminate|]. rewrite removable_eq, !andb_true_iff. tauto.
Qed.

Lemma prune_out t d : In d t -> (~ In d (prune t) <-> removable (prune_fuel t) t d = true).
Proof.
  intros Hd. unfold prune. rewrite filter_In, negb_true_iff.
  destruct (removable (prune_fuel t) t d); intuition congruence.
Qed.

Lemma forallb_ext_in {A} (f g : A -> bool) l : (forall x, In x l -> f x = g x) -> forallb f l = forallb g l.
Proof.
  induction l as [|a l IH]; intros H; simpl; [reflexivity|].
  rewrite (H a (or_introl eq_refl)). f_equal. apply IH. intros x Hx. apply H. right. exact Hx.
Qed.

Lemma child_path_length : forall d c, child_path d c = true -> length c = S (length d).
Proof.
  induction d as [|x d IH]; intros [|y c] H; simpl in H; try discriminate.
  - destruct c; [reflexivity|discriminate].
  - apply andb_true_iff in H as [_ H]. simpl. f_equal. apply IH. exact H.
Qed.

Lemma maxdepth_ge : forall t n, In n t -> length (pn_path n) <= maxdepth t.
Proof.
  induction t as [|a t IH]; intros n H; [destruct H|]. destruct H as [H|H]; simpl.
  - subst. apply Nat.le_max_l.
  - etransitivity; [apply IH; exact H | apply Nat.le_max_r].
Qed.

(* the fuel only bounds the depth: an entry at depth k has nothing listed more than
   maxdepth t - k levels below it, so any two fuels above that give the same answer *)
Lemma removable_enough : forall f g t d,
  0 < f -> 0 < g -> maxdepth t < f + length (pn_path d) -> maxdepth t < g + length (pn_path d) ->
  removable f t d = removable g t d.
Proof.
  induction f as [|f IH]; intros [|g] t d Hf Hg Hdf Hdg; try lia.
  rewrite !removable_eq. f_equal. apply forallb_ext_in. intros c Hc.
  destruct (child_path (pn_path d) (pn_path c)) eqn:E; [|reflexivity].
  apply child_path_length in E. pose proof (maxdepth_ge _ _ Hc). f_equal. apply IH; lia.
Qed.

(* hence with prune's fuel [removable] satisfies its defining equation with no fuel spent *)
Lemma removable_fix t d :
  removable (prune_fuel t) t d =
  pn_dir d && pn_old d &&
  forallb (fun c => if child_path (pn_path d) (pn_path c)
                    then pn_dir c && removable (prune_fuel t) t c else true) t.
Proof.
  rewrite <- removable_eq. apply removable_enough; unfold prune_fuel; lia.
Qed.

(* C20, full characterisation: an entry goes iff it is a directory, old enough, and every
   entry it has goes in the same run (so: it is empty when its turn comes) *)
Theorem prune_spec : forall t d, In d t ->
  (~ In d (prune t) <->
   pn_dir d = true /\ pn_old d = true /\
   forall c, In c t -> child_path (pn_path d) (pn_path c) = true -> ~ In c (prune t)).
Proof.
  intros t d Hd. rewrite (prune_out t d Hd), removable_fix, !andb_true_iff, forallb_forall.
  split; [intros [[A B] H] | intros (A & B & H)]; repeat split; auto; intros c Hc.
  - intros E. specialize (H c Hc). rewrite E in H. apply andb_true_iff in H. apply prune_out; tauto.
  - destruct (child_path (pn_path d) (pn_path c)) eqn:E; [|reflexivity].
    apply H, prune_out in E; auto. rewrite E, (proj1 (removable_dir_old _ _ _ E)). reflexivity.
Qed.
