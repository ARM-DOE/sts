From Coq Require Import List ZArith Bool Lia.
From STS Require Import Model.LogM Proofs.QueueP Proofs.StringsP.
Import ListNotations.
Open Scope Z_scope.
(* [simpl] on the string functions leaves their tests [x =? SEP] as they are, for the rewrites *)
Local Arguments Z.eqb : simpl never.

Lemma no_sep_app a b : no_sep (a ++ b) = no_sep a && no_sep b.
Proof. unfold no_sep. apply forallb_app. Qed.

Lemma no_sep_Forall f : no_sep f = true -> Forall (fun c => (c =? SEP) = false) f.
Proof.
  unfold no_sep. rewrite forallb_forall, Forall_forall. intros H c Hc. apply negb_true_iff; auto.
Qed.

Theorem split_join : forall fields,
  fields <> [] -> Forall (fun f => no_sep f = true) fields -> split (join fields) = fields.
Proof.
  intros fields Hne H. unfold split. rewrite split_aux_wsplit, join_wjoin.
  apply wsplit_join; auto. eapply Forall_impl; [apply no_sep_Forall | exact H].
Qed.

Lemma is_prefix_app p s : is_prefix p (p ++ s) = true.
Proof. induction p as [|x p IH]; simpl; auto. rewrite Z.eqb_refl. auto. Qed.

(* "n:" is a prefix of "m:..." only if n = m: both sides are cut at their first ':' *)
Lemma prefix_name_exact : forall n m rest,
  no_sep n = true -> no_sep m = true ->
  is_prefix (n ++ [SEP]) (m ++ SEP :: rest) = true -> n = m.
Proof.
  induction n as [|x n IH]; intros [|y m] rest Hn Hm H; simpl in *; auto;
    rewrite ?andb_true_iff, ?negb_true_iff in *.
  - destruct H as [H _]. rewrite Z.eqb_sym in H. destruct Hm; congruence.
  - destruct H, Hn; congruence.
  - destruct H as [Hxy H], Hn, Hm. apply Z.eqb_eq in Hxy. subst y. f_equal. eauto.
Qed.

(* the look-up on any line that begins with a separator-free name field: the
   name must be that field, the hash (when given) the field the code picks
   from what follows *)
Lemma line_matches_spec : forall n h m tail,
  n <> [] -> no_sep n = true -> no_sep m = true ->
  (line_matches n h (m ++ SEP :: tail) = true <->
   n = m /\ (h = [] \/ h = let fields := split tail in
                           if (4 <? length fields)%nat then nth 1 fields [] else nth 0 fields [])).
Proof.
  intros n h m tail Hne Hn Hm. unfold line_matches.
  (* [line_matches] begins with a test for the empty name: decided, and [n] a variable again *)
  destruct n as [|x n']; [congruence|]. remember (x :: n') as n eqn:En. clear En.
  destruct (is_prefix (n ++ [SEP]) (m ++ SEP :: tail)) eqn:P.
  - apply prefix_name_exact in P; auto. destruct P.
    change (n ++ SEP :: tail) with (n ++ [SEP] ++ tail). rewrite app_assoc, skipn_prefix.
    destruct h; [tauto|]. rewrite name_eqb_eq. intuition congruence.
  - split; [discriminate|]. intros [<- _].
    change (n ++ SEP :: tail) with (n ++ [SEP] ++ tail) in P. rewrite app_assoc, is_prefix_app in P. discriminate.
Qed.

Definition clean_rec (r : rrec) : Prop :=
  no_sep (rn r) = true /\ no_sep (rr r) = true /\ no_sep (rh r) = true /\
  no_sep (rsz r) = true /\ no_sep (rtm r) = true.

Lemma day_of_add t k : day_of (t + k * DAY) = day_of t + k.
Proof. unfold day_of, DAY. apply Z.div_add. lia. Qed.

Lemma day_of_mono a b : a <= b -> day_of a <= day_of b.
Proof. intros. unfold day_of, DAY. apply Z.div_le_mono; lia. Qed.

(* fuel is counted in days: the step that overshoots stop needs no special case *)
Lemma walk_fwd_covers : forall fuel start stop d,
  day_of start <= d <= day_of stop -> d - day_of start < Z.of_nat fuel ->
  In d (walk_fwd fuel start stop).
Proof.
  induction fuel as [|f IH]; intros start stop d Hd Hf; [lia|]. cbn [walk_fwd].
  destruct (Z.eq_dec d (day_of start)) as [->|Hne]; [left; auto|right].
  destruct (Z.ltb_spec stop start) as [L|L]; [pose proof (day_of_mono _ _ (Z.lt_le_incl _ _ L)); lia|].
  apply IH; rewrite <- (Z.mul_1_l DAY), day_of_add; lia.
Qed.

Lemma walk_bwd_covers : forall fuel start stop d,
  day_of stop <= d <= day_of start -> day_of start - d < Z.of_nat fuel ->
  In d (walk_bwd fuel start stop).
Proof.
  induction fuel as [|f IH]; intros start stop d Hd Hf; [lia|]. cbn [walk_bwd].
  destruct (Z.eq_dec d (day_of start)) as [->|Hne]; [left; auto|right].
  destruct (Z.ltb_spec start stop) as [L|L]; [pose proof (day_of_mono _ _ (Z.lt_le_incl _ _ L)); lia|].
  apply IH; change (start - DAY) with (start + (-1) * DAY); rewrite day_of_add; lia.
Qed.

Lemma walk_fuel_enough a b : Z.abs (day_of b - day_of a) < Z.of_nat (walk_fuel a b).
Proof. unfold walk_fuel, day_of, DAY. Z.div_mod_to_equations. lia. Qed.

Theorem search_spec : forall lg n h start stop,
  search lg n h start stop = true <->
  exists d line, In d (walk start stop) /\ In line (lines_of d lg) /\ line_matches n h line = true.
Proof.
  intros. unfold search. rewrite existsb_exists. setoid_rewrite existsb_exists. split.
  - intros (d & Hd & line & H). eauto.
  - intros (d & line & Hd & H). eauto.
Qed.

(* the day file of a log whose records are rendered by f *)
Lemma lines_of_map {A} (f : A -> bytes) d (lg : list (Z * list A)) :
  lines_of d (map (fun dl => (fst dl, map f (snd dl))) lg) =
  map f (flat_map (fun dl => if fst dl =? d then snd dl else []) lg).
Proof.
  induction lg as [|[d' rs] lg IH]; simpl; [reflexivity|].
  destruct (d' =? d); simpl; rewrite ?map_app, IH; reflexivity.
Qed.
