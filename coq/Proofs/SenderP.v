From Coq Require Import List ZArith Bool Lia Permutation.
From STS Require Import Model.Queue Model.Sender Proofs.QueueP.
Import ListNotations.
Open Scope Z_scope.

Lemma split_at_spec k ps hd tl :
  split_at k ps = Some (hd, tl) ->
  hd ++ tl = ps /\ length hd = k /\ tl <> [] /\ hd = firstn k ps /\ tl = skipn k ps.
Proof.
  unfold split_at. destruct (Nat.ltb k 1 || Nat.leb (length ps) k) eqn:E; [discriminate|].
  intros Hs; inversion Hs. apply orb_false_iff in E as [_ E2]. apply Nat.leb_gt in E2.
  repeat split.
  - apply firstn_skipn.
  - rewrite firstn_length. lia.
  - intros Hn. assert (L : length (skipn k ps) = 0%nat) by (rewrite Hn; reflexivity).
    rewrite skipn_length in L. lia.
Qed.

Lemma index_of_spec x : forall l,
  match index_of x l with
  | Some i => exists l1 l2, l = l1 ++ x :: l2 /\ i = length l1
  | None => ~ In x l
  end.
Proof.
  induction l as [|y r IH]; simpl; [tauto|].
  destruct (Z.eqb_spec y x) as [->|Hne]; [exists [], r; auto|].
  destruct (index_of x r) as [i|].
  - destruct IH as (l1 & l2 & -> & ->). exists (y :: l1), l2. auto.
  - tauto.
Qed.

Lemma set_nth_app : forall a y b v, set_nth (a ++ y :: b) (length a) v = a ++ v :: b.
Proof. induction a as [|h a IH]; intros; simpl; [|rewrite IH]; reflexivity. Qed.

Lemma remove_swap_perm : forall ps x,
  In x ps -> Permutation (x :: remove_swap ps x) ps.
Proof.
  intros ps x Hin. unfold remove_swap. pose proof (index_of_spec x ps) as S.
  destruct (index_of x ps) as [i|]; [|contradiction].
  destruct S as (l1 & l2 & -> & ->). rewrite set_nth_app.
  destruct l2 as [|z l2 _] using rev_ind.
  - rewrite removelast_last. apply Permutation_cons_append.
  - rewrite !app_comm_cons, !app_assoc, last_last, removelast_last.
    rewrite <- Permutation_cons_append, <- !Permutation_middle. apply perm_swap.
Qed.

Lemma remove_swap_notin ps x : ~ In x ps -> remove_swap ps x = ps.
Proof.
  intros Hn. unfold remove_swap. pose proof (index_of_spec x ps) as S.
  destruct (index_of x ps); [|reflexivity].
  destruct S as (l1 & l2 & -> & _). destruct Hn. apply in_elt.
Qed.

Definition inb (ch : list Z) (p : Z) : bool := existsb (Z.eqb p) ch.

Lemma inb_spec ch p : inb ch p = true <-> In p ch.
Proof.
  unfold inb. rewrite existsb_exists. split.
  - intros [x [Hx E]]. apply Z.eqb_eq in E. subst; auto.
  - intros Hx. exists p. split; auto. apply Z.eqb_refl.
Qed.

(* each part of [todo] that changed is taken out of [acc] once: enough that [acc]
   has every part of [todo], as often *)
Lemma filter_changed_perm_gen ch : forall todo acc extra,
  Permutation acc (todo ++ extra) ->
  Permutation (fold_left (fun a p => if inb ch p then remove_swap a p else a) todo acc
               ++ filter (inb ch) todo) acc.
Proof.
  induction todo as [|p r IH]; intros acc extra Hacc; simpl.
  - rewrite app_nil_r. reflexivity.
  - destruct (inb ch p).
    + assert (P : Permutation (p :: remove_swap acc p) acc)
        by (apply remove_swap_perm; rewrite Hacc; left; reflexivity).
      rewrite <- Permutation_middle, (IH _ extra); [exact P|].
      apply Permutation_cons_inv with p. rewrite P. exact Hacc.
    + apply (IH _ (p :: extra)). rewrite Hacc. apply Permutation_middle.
Qed.

Theorem filter_changed_perm ps ch :
  Permutation (filter_changed ps ch ++ filter (inb ch) ps) ps.
Proof. apply (filter_changed_perm_gen ch ps ps []). rewrite app_nil_r. reflexivity. Qed.

Definition accounted (r : sres) : list Z := concat (forwarded r) ++ sdropped r ++ rest r.

Theorem ack_split_exact k ps fwd remain :
  ack_split k ps = (fwd, remain) ->
  concat fwd ++ remain = ps /\
  concat fwd = firstn k ps /\ remain = skipn k ps.
Proof.
  intros E. enough (H : concat fwd = firstn k ps /\ remain = skipn k ps)
    by (destruct H as [-> ->]; auto using firstn_skipn).
  unfold ack_split in E. destruct (Nat.ltb_spec 0 k) as [Hk|Hk].
  - destruct (split_at k ps) as [[hd tl]|] eqn:Es; injection E as <- <-; simpl; rewrite app_nil_r.
    + apply split_at_spec in Es. tauto.
    + unfold split_at in Es. destruct (Nat.ltb_spec k 1); [lia|].
      destruct (Nat.leb_spec (length ps) k); [|discriminate].
      rewrite firstn_all2, skipn_all2 by assumption. auto.
  - injection E as <- <-. replace k with 0%nat by lia. auto.
Qed.

(* what [accounted] is if the loop stops now, with [ps] still to send *)
Definition acct (acc : sres) (ps : list Z) : list Z := accounted (stop_with acc ps false).

Lemma acct_fwd acc g tl ps :
  concat g ++ tl = ps -> Permutation (acct (add_fwd acc g) tl) (acct acc ps).
Proof.
  intros <-. unfold acct, accounted; simpl. rewrite concat_app, <- app_assoc.
  apply Permutation_app_head, Permutation_app_swap_app.
Qed.

Lemma acct_drop acc x r' r :
  Permutation (r' ++ x) r -> Permutation (acct (add_drop acc x) r') (acct acc r).
Proof.
  intros P. unfold acct, accounted; simpl. rewrite <- P, <- app_assoc.
  do 2 apply Permutation_app_head. apply Permutation_app_comm.
Qed.

(* each step of the loop only moves parts from [ps] to the forwarded or the dropped ones *)
Theorem send_loop_accounts : forall fuel ps evs acc,
  Permutation (accounted (send_loop fuel ps evs acc)) (acct acc ps).
Proof.
  induction fuel as [|f IH]; intros ps evs acc; [reflexivity|].
  cbn [send_loop]. destruct evs as [|[n [|]|n ok|ch] r]; try reflexivity.
  - apply (acct_fwd (add_req acc ps) [ps] [] ps). simpl. rewrite !app_nil_r. reflexivity.
  - destruct (if Nat.eqb n 0 then recover_count r else Some (n, r)) as [[k r1]|]; [|reflexivity].
    destruct (ack_split k ps) as [fwd remain] eqn:Ea.
    apply ack_split_exact in Ea as [Hsum _].
    etransitivity; [|exact (acct_fwd (add_req acc ps) _ _ _ Hsum)].
    destruct remain as [|t0 tl]; [reflexivity|].
    destruct r1 as [|[| |ch] r2]; try reflexivity.
    etransitivity; [|apply acct_drop, (filter_changed_perm _ ch)].
    destruct (filter_changed (t0 :: tl) ch); [reflexivity|apply IH].
Qed.

(* the test all three decisions (poll loop, finish, recovery poll) make before releasing *)
Lemma positive_code code :
  (code =? POLL_WAITING) || (code =? POLL_PASSED) = true <-> code = POLL_WAITING \/ code = POLL_PASSED.
Proof. rewrite orb_true_iff, !Z.eqb_eq. reflexivity. Qed.

Theorem release_needs_positive_answer : forall code polled attempts,
  on_poll code polled attempts = ARelease -> code = POLL_WAITING \/ code = POLL_PASSED.
Proof.
  intros code polled attempts. unfold on_poll. rewrite <- positive_code.
  destruct (code =? POLL_NONE); [destruct (polled + 1 =? attempts); discriminate|].
  destruct (code =? POLL_FAILED); [discriminate|].
  destruct ((code =? POLL_WAITING) || (code =? POLL_PASSED)); [reflexivity|discriminate].
Qed.

Theorem negative_answers_never_release : forall code polled attempts,
  code = POLL_NONE \/ code = POLL_FAILED -> on_poll code polled attempts <> ARelease.
Proof.
  intros code polled attempts Hn Hr. apply release_needs_positive_answer in Hr.
  destruct Hn as [-> | ->], Hr; discriminate.
Qed.

Theorem recover_poll_never_releases_on_negative : forall code,
  recover_after_poll code = QFinishAndPlaceholder -> code = POLL_WAITING \/ code = POLL_PASSED.
Proof.
  intros code. unfold recover_after_poll. rewrite <- positive_code.
  destruct ((code =? POLL_NONE) || (code =? POLL_FAILED)); [discriminate|].
  destruct ((code =? POLL_WAITING) || (code =? POLL_PASSED)); [reflexivity|discriminate].
Qed.

Lemma confirmation_applies_spec cached polled :
  confirmation_applies cached polled = true -> polled = [] \/ cached = polled.
Proof.
  unfold confirmation_applies. destruct polled as [|x r]; [left; reflexivity|].
  intros H. right. apply name_eqb_eq. exact H.
Qed.

(* one answer either leaves the entry as it is and the file alone, or it is positive and
   about the version the entry holds *)
Lemma finish_step_inv code cached polled was_done can_delete disk :
  let r := finish_step code cached polled was_done can_delete disk in
  (fo_done r = was_done /\ fo_removed r = false) \/
  ((code = POLL_WAITING \/ code = POLL_PASSED) /\ (polled = [] \/ cached = polled) /\
   fo_removed r = negb was_done && can_delete && (disk =? 0)).
Proof.
  unfold finish_step. rewrite <- positive_code.
  destruct ((code =? POLL_WAITING) || (code =? POLL_PASSED)); [|left; auto].
  destruct (confirmation_applies cached polled) eqn:Ea; [|left; auto].
  right. auto using confirmation_applies_spec.
Qed.

Theorem finish_negative_retries : forall code cached polled was_done can_delete disk,
  code <> POLL_PASSED -> code <> POLL_WAITING ->
  finish_step code cached polled was_done can_delete disk = mkfo was_done false true.
Proof.
  intros code cached polled was_done can_delete disk H1 H2. unfold finish_step.
  destruct ((code =? POLL_WAITING) || (code =? POLL_PASSED)) eqn:E; [|reflexivity].
  apply positive_code in E. tauto.
Qed.

Example finish_unhashed_replacement_not_confirmed :
  finish_step POLL_PASSED [] [1; 2] false true 0 = mkfo false false false.
Proof. reflexivity. Qed.

Theorem unchanged_not_requeued : forall disabled ih hi min_age mtime f,
  fi_cached f = Some (fi_size f, mtime) -> scan_returns disabled ih hi min_age mtime f = false.
Proof.
  intros disabled ih hi min_age mtime f Hc. unfold scan_returns. rewrite Hc, !Z.eqb_refl. apply andb_false_r.
Qed.

Lemma scan_file_split cfg now c d :
  scan_file cfg now c d = eligible cfg now d && changed_since (sc_get c (df_name d)) d.
Proof.
  unfold eligible, scan_returns, changed_since. rewrite ?andb_true_r; reflexivity.
Qed.

(* the version of [n] a list of returned files leaves behind, [a] if it has none *)
Definition upd (n : name) (a : option (Z * Z)) (d : dfile) : option (Z * Z) :=
  if name_eqb (df_name d) n then Some (df_size d, df_mtime d) else a.

Lemma sc_get_fold : forall ret c n,
  sc_get (fold_left (fun c d => sc_put c (df_name d) (df_size d, df_mtime d)) ret c) n =
  fold_left (upd n) ret (sc_get c n).
Proof.
  induction ret as [|d r IH]; intros c n; simpl; [reflexivity|].
  rewrite IH. reflexivity.
Qed.

(* the cache always holds, for every name, the version that was returned last *)
Lemma cache_tracks : forall evs c n,
  sc_get (scan_cache evs c) n = last_returned (scan_run evs c) n (sc_get c n).
Proof.
  induction evs as [|[[cfg now] world] r IH]; intros c n; [reflexivity|].
  cbn [scan_cache scan_run scan_once snd last_returned]. rewrite IH. rewrite sc_get_fold. reflexivity.
Qed.

(* the scans after a prefix are a history of their own, begun with the cache the prefix leaves *)
Lemma scan_run_nth : forall pre post c k,
  nth (k + length pre) (scan_run (pre ++ post) c) [] = nth k (scan_run post (scan_cache pre c)) [].
Proof.
  induction pre as [|[[cfg now] world] r IH]; intros post c k; simpl.
  - rewrite Nat.add_0_r. reflexivity.
  - rewrite Nat.add_succ_r. apply IH.
Qed.

Theorem sc_get_clean : forall world c n,
  sc_get (sc_clean world c) n = if sc_present world n then sc_get c n else None.
Proof.
  intros world c n. induction c as [|[m v] r IH]; [destruct (sc_present world n); reflexivity|].
  cbn [sc_clean filter fst]. destruct (sc_present world m) eqn:Hm; cbn [sc_get];
    (destruct (name_eqb_spec m n) as [<-|_]; [|exact IH]).
  - rewrite Hm. reflexivity.
  - fold (sc_clean world r). rewrite IH, Hm. reflexivity.
Qed.

Lemma in_world_present world d : In d world -> sc_present world (df_name d) = true.
Proof.
  intros Hin. apply existsb_exists. exists d. split; [exact Hin|apply name_eqb_refl].
Qed.

Theorem clean_invisible_to_scan : forall clean cfg now world c,
  fst (scan_once_c clean cfg now world c) = fst (scan_once cfg now world c).
Proof.
  intros [|] cfg now world c; [|reflexivity].
  apply filter_ext_in. intros d Hin.
  unfold scan_file. rewrite sc_get_clean, (in_world_present world d Hin). reflexivity.
Qed.

Definition holds (c : scache) (d : dfile) : Prop :=
  sc_get c (df_name d) = Some (df_size d, df_mtime d).

Lemma held_not_returned cl cfg now world c d :
  holds c d -> ~ In d (fst (scan_once_c cl cfg now world c)).
Proof.
  intros Hh Hin. rewrite clean_invisible_to_scan in Hin. apply filter_In in Hin as [_ Hs].
  unfold scan_file in Hs. rewrite unchanged_not_requeued in Hs by exact Hh. discriminate.
Qed.

Lemma fold_upd_same n v : forall (r : list dfile) a,
  (forall x, In x r -> df_name x = n -> (df_size x, df_mtime x) = v) ->
  a = Some v \/ (exists x, In x r /\ df_name x = n) ->
  fold_left (upd n) r a = Some v.
Proof.
  induction r as [|x r IH]; intros a Hs Ha; cbn [fold_left].
  - destruct Ha as [Ha|[x [[] _]]]. exact Ha.
  - apply IH; [auto using in_cons|]. unfold upd. destruct (name_eqb_spec (df_name x) n) as [E|E].
    + left. rewrite (Hs x (in_eq _ _) E). reflexivity.
    + destruct Ha as [Ha|[y [[<-|Hy] Hn]]]; eauto. contradiction.
Qed.

Lemma nodup_map_inj {A B} (f : A -> B) : forall w x d,
  NoDup (map f w) -> In x w -> In d w -> f x = f d -> x = d.
Proof.
  intros w x d Hn Hx Hd He. apply in_split in Hd as (w1 & w2 & ->).
  apply in_elt_inv in Hx as [Hx|Hx]; [auto|]. rewrite map_app in Hn. apply NoDup_remove_2 in Hn.
  destruct Hn. rewrite <- He, <- map_app. apply in_map, Hx.
Qed.

(* where names are distinct, a version that is there and was held before the scan or is returned by
   it is held after it *)
Lemma holds_step cl cfg now world c d :
  NoDup (map df_name world) -> In d world ->
  holds c d \/ In d (fst (scan_once_c cl cfg now world c)) ->
  holds (snd (scan_once_c cl cfg now world c)) d.
Proof.
  intros Hn Hw H. unfold holds, scan_once_c, scan_once in *. cbn [fst snd] in *.
  rewrite sc_get_fold. apply fold_upd_same.
  - intros x Hx E. apply filter_In in Hx as [Hx _].
    rewrite (nodup_map_inj df_name world x d Hn Hx Hw E). reflexivity.
  - destruct H as [H|H]; [left|right; eauto].
    destruct cl; [rewrite sc_get_clean, (in_world_present world d Hw)|]; exact H.
Qed.

Lemma holds_run d : forall mid c,
  Forall (fun ev => In d (ev_world ev) /\ NoDup (map df_name (ev_world ev))) mid ->
  holds c d -> holds (scan_cache_c mid c) d.
Proof.
  induction mid as [|[[[cl cfg] now] world] r IH]; intros c Hmid Hh; [exact Hh|].
  inversion Hmid as [|e l [Hin Hnd] Hr]. apply IH, holds_step; auto.
Qed.

(* histories with clean-ups: a version that was returned and stays where it is - whatever else
   happens to the tree, however many scans and clean-ups go by - is not returned again *)
Theorem kept_version_not_returned : forall cl cfg now world c d mid cl' cfg' now' world',
  NoDup (map df_name world) -> In d (fst (scan_once_c cl cfg now world c)) ->
  Forall (fun ev => In d (ev_world ev) /\ NoDup (map df_name (ev_world ev))) mid ->
  ~ In d (fst (scan_once_c cl' cfg' now' world' (scan_cache_c mid (snd (scan_once_c cl cfg now world c))))).
Proof.
  intros cl cfg now world c d mid cl' cfg' now' world' Hn Hret Hmid.
  apply held_not_returned, holds_run, holds_step; auto.
  apply filter_In in Hret as [Hw _]. exact Hw.
Qed.
