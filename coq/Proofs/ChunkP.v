From Coq Require Import List ZArith Bool Lia.
From STS Require Import Model.Ranges Model.Chunk Proofs.RangesP.
Import ListNotations.
Open Scope Z_scope.

(* chunks (offset,length) tile [lo,hi): non-empty, ascending, contiguous *)
Fixpoint tiles_from (lo hi : Z) (cs : list chunk) : Prop :=
  match cs with
  | [] => lo = hi
  | (o, l) :: r => o = lo /\ 0 < l /\ tiles_from (o + l) hi r
  end.

Lemma tiles_from_b_spec : forall cs lo hi, tiles_from_b lo hi cs = true <-> tiles_from lo hi cs.
Proof.
  induction cs as [|[o l] r IH]; intros lo hi; simpl.
  - apply Z.eqb_eq.
  - rewrite !andb_true_iff, Z.eqb_eq, Z.ltb_lt, IH. tauto.
Qed.

Lemma tiles_from_le : forall cs lo hi, tiles_from lo hi cs -> lo <= hi.
Proof.
  induction cs as [|[o l] r IH]; intros lo hi H; simpl in H.
  - lia.
  - destruct H as [-> [Hl H]]. apply IH in H. lia.
Qed.

Lemma tiles_from_cover : forall cs lo hi i,
  tiles_from lo hi cs -> lo <= i < hi -> exists o l, In (o, l) cs /\ o <= i < o + l.
Proof.
  induction cs as [|[o l] r IH]; intros lo hi i H Hi; simpl in H.
  - lia.
  - destruct H as [-> [_ H]]. destruct (Z_lt_dec i (lo + l)).
    + exists lo, l. split; [left; auto | lia].
    + destruct (IH _ _ i H) as [o' [l' [Hin Hr]]]; [lia|]. exists o', l'. split; [right; auto | auto].
Qed.

Lemma tiles_from_inside : forall cs lo hi o l,
  tiles_from lo hi cs -> In (o, l) cs -> lo <= o /\ o + l <= hi /\ 0 < l.
Proof.
  induction cs as [|[o' l'] r IH]; intros lo hi o l H Hin; simpl in H; [destruct Hin|].
  destruct H as [-> [Hl H]]. destruct Hin as [Heq|Hin].
  - inversion Heq. apply tiles_from_le in H. lia.
  - destruct (IH _ _ _ _ H Hin) as [A [B C]]. lia.
Qed.

(* the chunk allocate cuts: non-empty, inside the file, the configured size or what is left *)
Lemma alloc_plain_spec size a d : 0 <= d -> a < size ->
  exists l, alloc_plain size a d = ((a, l), a + l) /\ 0 < l <= size - a /\
            (0 < d -> l = Z.min d (size - a)).
Proof.
  intros Hd Ha. unfold alloc_plain. eexists; split; [reflexivity|].
  destruct (Z.eqb_spec d 0); [simpl; lia|]. destruct (Z.ltb_spec size (a + d)); simpl; lia.
Qed.

Theorem chunks_plain_tile : forall fuel size desired a cs,
  0 <= desired -> a <= size ->
  chunks_plain fuel size desired a = Some cs ->
  tiles_from a size cs /\ (0 < desired -> Forall (fun c => snd c <= desired) cs).
Proof.
  induction fuel as [|f IH]; intros size d a cs Hd Ha H; cbn [chunks_plain] in H;
    destruct (Z.eqb_spec a size) as [->|Hne]; try discriminate.
  1, 2: inversion H; simpl; auto.
  destruct (alloc_plain_spec size a d) as (l & E & Hl & Hm); [lia..|]. rewrite E in H.
  destruct (chunks_plain f size d (a + l)) as [r|] eqn:R; [|discriminate].
  inversion H; subst. apply IH in R; [|lia..]. destruct R as [R1 R2].
  split; [simpl; tauto|]. intros Hp. constructor; [simpl; lia | auto].
Qed.

Theorem chunks_plain_total : forall fuel size desired a,
  0 < desired -> a <= size ->
  (size - a) <= Z.of_nat fuel * desired ->
  exists cs, chunks_plain fuel size desired a = Some cs.
Proof.
  induction fuel as [|f IH]; intros size d a Hd Ha Hf; cbn [chunks_plain];
    destruct (Z.eqb_spec a size) as [->|Hne]; eauto; [lia|].
  destruct (alloc_plain_spec size a d) as (l & -> & Hl & Hm); [lia..|].
  destruct (IH size d (a + l)) as [cs ->]; eauto; lia.
Qed.

(* resumed files: chunks tile the missing ranges, one range after the
   other, never crossing a range boundary *)

Fixpoint tiles_list (rs : list range) (cs : list chunk) : Prop :=
  match rs with
  | [] => cs = []
  | (b, e) :: rest =>
      exists c1 c2, cs = c1 ++ c2 /\ tiles_from b e c1 /\ tiles_list rest c2
  end.

Definition wf_left (left : list range) : Prop := Forall (fun r => fst r < snd r) left.

(* the ranges still to be cut when [used] bytes of the head range are gone *)
Definition remaining (left : list range) (used : Z) : list range :=
  match left with [] => [] | (b, e) :: rest => (b + used, e) :: rest end.

Lemma remaining_0 left : remaining left 0 = left.
Proof. destruct left as [|[b e] rest]; simpl; [|rewrite Z.add_0_r]; reflexivity. Qed.

(* a chunk cut from the front of the first range: the range is finished, or not *)
Lemma tiles_list_last b e rest cs :
  b < e -> tiles_list rest cs -> tiles_list ((b, e) :: rest) ((b, e - b) :: cs).
Proof. intros Hl T. exists [(b, e - b)], cs. simpl. repeat split; auto; lia. Qed.

Lemma tiles_list_more b e l rest cs :
  0 < l -> tiles_list ((b + l, e) :: rest) cs -> tiles_list ((b, e) :: rest) ((b, l) :: cs).
Proof. intros Hl (c1 & c2 & -> & T1 & T2). exists ((b, l) :: c1), c2. simpl. auto. Qed.

Theorem chunks_rec_tile : forall fuel left used d cs,
  0 < d -> wf_left (remaining left used) ->
  chunks_rec fuel left used d = Some cs ->
  tiles_list (remaining left used) cs /\ Forall (fun c => snd c <= d) cs.
Proof.
  induction fuel as [|f IH]; intros [|[b e] rest] used d cs Hd Hwf H; try discriminate.
  1, 2: inversion H; simpl; auto.
  cbn [chunks_rec alloc_rec] in H. inversion Hwf as [|x xs Hbe Hwf']; subst. simpl in Hbe.
  destruct (Z.leb_spec e (b + used + d)) as [C|C].
  - destruct (chunks_rec f rest 0 d) as [r|] eqn:R; [|discriminate]. inversion H.
    apply IH in R; rewrite ?remaining_0 in *; auto. destruct R as [T F].
    split; [apply tiles_list_last; auto | constructor; simpl; auto; lia].
  - destruct (chunks_rec f _ (used + d) d) as [r|] eqn:R; [|discriminate].
    inversion H. apply IH in R; [|exact Hd | constructor; simpl; auto; lia].
    destruct R as [T F]. simpl in T. rewrite Z.add_assoc in T.
    split; [apply tiles_list_more; auto | constructor; simpl; auto; lia].
Qed.

Definition sum_len (cs : list chunk) : Z := fold_right (fun c acc => snd c + acc) 0 cs.

Lemma sum_len_app xs ys : sum_len (xs ++ ys) = sum_len xs + sum_len ys.
Proof. induction xs as [|x xs IH]; simpl; [|rewrite IH]; lia. Qed.

Lemma tiles_from_sum : forall cs lo hi, tiles_from lo hi cs -> sum_len cs = hi - lo.
Proof.
  induction cs as [|[o l] r IH]; intros lo hi H; simpl in *; [lia|].
  destruct H as (-> & _ & H). rewrite (IH _ _ H). lia.
Qed.

(* in a sorted disjoint record bounded below by beg every byte on record lies in [beg, last_end) *)
Lemma last_end_bounds : forall ps beg,
  sorted_disjoint_b ps = true -> lower_bounded beg ps ->
  beg <= last_end ps beg /\ forall i, covered ps i -> beg <= i < last_end ps beg.
Proof.
  induction ps as [|[pb pe] rest IH]; intros beg Hs Hlb; simpl in *.
  - split; [lia|]. intros i H. apply covered_nil in H. tauto.
  - apply sorted_disjoint_cons in Hs as (Hp & Hlb' & Hs). destruct (IH pe Hs Hlb') as [A B].
    split; [lia|]. intros i H. apply covered_cons in H as [H|H]; [|apply B in H]; lia.
Qed.

Lemma last_end_le : forall ps beg size,
  sorted_disjoint_b ps = true -> beg <= size -> (forall i, covered ps i -> i < size) ->
  last_end ps beg <= size.
Proof.
  induction ps as [|[pb pe] rest IH]; intros beg size Hs Hb Hin; simpl; [lia|].
  apply sorted_disjoint_cons in Hs as (Hp & _ & Hs).
  assert (pe - 1 < size) by (apply Hin, covered_cons; lia).
  apply IH; [exact Hs | lia |]. intros i H'. apply Hin, covered_cons. auto.
Qed.

Lemma missing_aux_spec : forall ps beg,
  sorted_disjoint_b ps = true -> lower_bounded beg ps ->
  snd (missing_aux ps beg) = last_end ps beg /\
  forall i, covered (fst (missing_aux ps beg)) i <-> beg <= i < last_end ps beg /\ ~ covered ps i.
Proof.
  induction ps as [|[pb pe] rest IH]; intros beg Hs Hlb; simpl in *.
  - split; [reflexivity|]. intros i. rewrite !covered_nil. lia.
  - apply sorted_disjoint_cons in Hs as (Hp & Hlb' & Hs).
    destruct (IH pe Hs Hlb') as [IL IC]. destruct (last_end_bounds rest pe Hs Hlb') as [A B].
    destruct (missing_aux rest pe) as [m last]; simpl in *.
    destruct (Z.eqb_spec beg pb); simpl; (split; [exact IL|]); intros i; specialize (B i);
      rewrite ?covered_cons, IC; destruct (Z_lt_dec i pb); intuition lia.
Qed.

(* C11 / C07: for a record that, once sorted by Beg, is non-empty-ranged,
   disjoint and inside [0,size], the ranges sent again are exactly the bytes
   the receiver does not report holding. *)
Theorem missing_complement : forall ps size,
  0 <= size ->
  sorted_disjoint_b (sort_ranges ps) = true ->
  lower_bounded 0 (sort_ranges ps) ->
  (forall i, covered ps i -> i < size) ->
  forall i, covered (missing ps size) i <-> (0 <= i < size /\ ~ covered ps i).
Proof.
  intros ps size Hsz Hs Hlb Hin i. unfold missing.
  destruct (missing_aux_spec _ 0 Hs Hlb) as [HL HC].
  destruct (last_end_bounds _ 0 Hs Hlb) as [A B]. specialize (B i).
  assert (Hle : last_end (sort_ranges ps) 0 <= size).
  { apply last_end_le; auto. intros j Hj. apply Hin, sort_ranges_covered, Hj. }
  destruct (missing_aux (sort_ranges ps) 0) as [m last]; simpl in *; subst last.
  rewrite sort_ranges_covered in B.
  destruct (Z.ltb_spec (last_end (sort_ranges ps) 0) size).
  - rewrite covered_app, covered_cons, covered_nil, HC, sort_ranges_covered.
    destruct (Z_lt_dec i (last_end (sort_ranges ps) 0)); intuition lia.
  - replace size with (last_end (sort_ranges ps) 0) by lia. rewrite HC, sort_ranges_covered. reflexivity.
Qed.

Fixpoint ptiles (id lo hi : Z) (ps : list part) : Prop :=
  match ps with
  | [] => lo = hi
  | (i, pb, pe) :: r => i = id /\ pb = lo /\ lo < pe /\ ptiles id pe hi r
  end.

Definition all_parts (st : bstate) : list part :=
  concat (map bparts (rev (out st))) ++
  match cur st with Some bn => bparts bn | None => [] end.

Definition bin_ok (cap : Z) (bn : bin) : Prop :=
  bcap bn = cap /\ bfluff bn = fluff_of cap /\ 0 <= bbytes bn /\ is_full bn = false.

Definition Inv (cap : Z) (st : bstate) : Prop :=
  (match cur st with Some bn => bin_ok cap bn | None => True end) /\
  Forall (fun bn => bbytes bn <= cap + fluff_of cap) (out st).

(* what every step of the binner does: the invariant holds again, nothing is
   dropped, and the parts ps are appended to those already cut *)
Definition grows (cap : Z) (st : bstate) (ps : list part) (st' : bstate) : Prop :=
  Inv cap st' /\ dropped st' = dropped st /\ all_parts st' = all_parts st ++ ps.

Lemma grows_refl cap st : Inv cap st -> grows cap st [] st.
Proof. intros H. split; [exact H|]. rewrite app_nil_r. auto. Qed.

Lemma grows_trans {cap st1 st2 st3 ps qs} :
  grows cap st1 ps st2 -> grows cap st2 qs st3 -> grows cap st1 (ps ++ qs) st3.
Proof.
  intros (_ & D1 & P1) (I2 & D2 & P2). split; [exact I2|].
  rewrite D2, P2, P1, app_assoc. auto.
Qed.

Lemma bin_ok_room cap bn :
  bin_ok cap bn -> 0 <= bbytes bn /\ 0 <= fluff_of cap <= cap - bbytes bn.
Proof.
  intros (Hc & Hf & Hb & Hnf). unfold is_full in Hnf. rewrite Hc, Hf in Hnf.
  unfold fluff_of in *. Z.div_mod_to_equations. lia.
Qed.

Lemma new_bin_ok cap : 1 <= fluff_of cap -> bin_ok cap (new_bin cap).
Proof.
  intros H. unfold bin_ok, new_bin, is_full; simpl. repeat split; [lia|].
  unfold fluff_of in *. Z.div_mod_to_equations. lia.
Qed.

(* a bin handed over to the senders *)
Lemma push_grows cap st bn ps :
  Forall (fun bn => bbytes bn <= cap + fluff_of cap) (out st) ->
  bbytes bn <= cap + fluff_of cap ->
  concat (map bparts (rev (out st))) ++ bparts bn = all_parts st ++ ps ->
  grows cap st ps (mkbs None (bn :: out st) (dropped st)).
Proof.
  intros HO Hb HP. unfold grows, Inv, all_parts at 1; simpl.
  rewrite map_app, concat_app. simpl. rewrite !app_nil_r. auto.
Qed.

(* one Add: with a slack of at least one byte something is always added *)
Lemma bin_add_grows cap st id lo hi :
  1 <= fluff_of cap -> Inv cap st -> lo < hi ->
  exists k bn', bin_add (match cur st with Some x => x | None => new_bin cap end) id lo hi = Some (k, bn') /\
    0 < k <= hi - lo /\
    grows cap st [(id, lo, lo + k)]
      (if is_full bn' then mkbs None (bn' :: out st) (dropped st) else mkbs (Some bn') (out st) (dropped st)).
Proof.
  intros Hfl [HC HO] Hlt. set (bn := match cur st with Some x => x | None => new_bin cap end).
  assert (HP : all_parts st = concat (map bparts (rev (out st))) ++ bparts bn)
    by (unfold all_parts, bn; destruct (cur st); reflexivity).
  assert (Hbn : bin_ok cap bn) by (unfold bn; destruct (cur st); [exact HC | apply new_bin_ok, Hfl]).
  destruct (bin_ok_room _ _ Hbn) as [Hb Hr]. destruct Hbn as (Hc & Hf & _).
  unfold bin_add. rewrite Hc, Hf.
  destruct (Z.ltb_spec 0 (Z.min hi (lo + (cap + fluff_of cap - bbytes bn)) - lo)) as [Hk|Hk]; [|lia].
  eexists _, _; split; [reflexivity|]. split; [lia|].
  replace (lo + _) with (Z.min hi (lo + (cap + fluff_of cap - bbytes bn))) by lia.
  destruct (is_full _) eqn:Fu.
  - apply push_grows; [exact HO | simpl; lia | rewrite HP; apply app_assoc].
  - unfold grows, Inv, bin_ok, all_parts at 1; simpl. rewrite HP, app_assoc. repeat split; auto; lia.
Qed.

Theorem bin_chunk_tiles : forall fuel cap st id b n a st',
  1 <= fluff_of cap -> a < n -> Inv cap st ->
  bin_chunk fuel cap st id b n a = Some st' ->
  exists ps, grows cap st ps st' /\ ptiles id (b + a) (b + n) ps.
Proof.
  induction fuel as [|f IH]; intros cap st id b n a st' Hfl Ha HI H; [discriminate|].
  cbn [bin_chunk] in H.
  destruct (bin_add_grows cap st id (b + a) (b + n) Hfl HI) as (k & bn' & E & Hk & G); [lia|].
  rewrite E in H. rewrite <- Z.add_assoc in G.
  destruct (Z.eqb_spec (a + k) n) as [Eq|Ne].
  - inversion H. exists [(id, b + a, b + (a + k))]. split; [exact G|]. simpl. lia.
  - apply IH in H as (ps & G' & T); [|exact Hfl | lia | apply G].
    exists ((id, b + a, b + (a + k)) :: ps). split; [exact (grows_trans G G')|].
    simpl. repeat split; auto; lia.
Qed.

Lemma flush_grows cap st : Inv cap st -> grows cap st [] (flush st).
Proof.
  intros HI. unfold flush. destruct (cur st) as [bn|] eqn:E; [|apply grows_refl, HI].
  destruct (0 <? bbytes bn); [|apply grows_refl, HI].
  destruct HI as [HC HO]. rewrite E in HC. destruct (bin_ok_room _ _ HC).
  apply push_grows; [exact HO | lia | unfold all_parts; rewrite E, app_nil_r; reflexivity].
Qed.

(* whole runs of the binner: any interleaving of chunks and idle flushes *)
Theorem pack_tiles : forall evs cap st st',
  1 <= fluff_of cap -> Inv cap st ->
  Forall (fun ev => 0 < snd (snd ev)) evs ->
  pack cap st evs = Some st' ->
  exists pss, grows cap st (concat pss) st' /\
              Forall2 (fun ev ps => let '(_, (id, b, n)) := ev in ptiles id b (b + n) ps) evs pss.
Proof.
  induction evs as [|[fl [[id b] n]] rest IH]; intros cap st st' Hfl HI Hwf H; cbn [pack] in H.
  - inversion H; subst. exists []. split; [apply flush_grows, HI | constructor].
  - inversion Hwf as [|x xs Hn Hwf']; subst. simpl in Hn.
    assert (G1 : grows cap st [] (if fl then flush st else st))
      by (destruct fl; [apply flush_grows | apply grows_refl]; exact HI).
    destruct (bin_chunk _ cap _ id b n 0) as [st2|] eqn:B; [|discriminate].
    apply bin_chunk_tiles in B as (ps & G2 & T2); [|exact Hfl | lia | apply G1].
    apply IH in H as (pss & G3 & T3); [|exact Hfl | apply G2 | exact Hwf'].
    exists (ps :: pss). split; [exact (grows_trans G1 (grows_trans G2 G3))|].
    constructor; [|exact T3]. rewrite Z.add_0_r in T2. exact T2.
Qed.

(* every payload handed to a sender respects the allowance cap + 10% *)
Theorem pack_allowance : forall evs cap st st',
  1 <= fluff_of cap -> Inv cap st ->
  Forall (fun ev => 0 < snd (snd ev)) evs ->
  pack cap st evs = Some st' ->
  Forall (fun bn => bbytes bn <= cap + fluff_of cap) (out st').
Proof.
  intros evs cap st st' Hfl HI Hwf H.
  destruct (pack_tiles _ _ _ _ Hfl HI Hwf H) as (_ & ((_ & HO) & _) & _). exact HO.
Qed.

Lemma init_inv cap : Inv cap init_bstate.
Proof. split; simpl; auto. Qed.
