(* C12, the rotation clause: a group that has just been served goes behind every
   other group of its priority, so a group that stays ready is passed over by
   groups of its own priority at most as many times as there are such groups in
   front of it. *)
From Coq Require Import List ZArith Lia Permutation.
From STS Require Import Model.Queue Proofs.QueueP.
Import ListNotations.
Open Scope Z_scope.

Definition clean (now : Z) (g : group) : group := fst (group_pop g now).

(* what Pop leaves of a group that it passes over *)
Lemma clean_skip now g : group_ready g now = false -> clean now g = skip g.
Proof.
  unfold clean, group_ready. destruct (group_pop g now) as [g' [out|]] eqn:G; [discriminate|].
  intros _. exact (group_pop_inv _ _ _ _ G).
Qed.

(* number of groups of priority p in front of the group named hn *)
Fixpoint rank (hn : name) (p : Z) (q : queue) : nat :=
  match q with
  | [] => 0
  | x :: r => if name_eqb (gname x) hn then 0
              else ((if (prio x =? p)%Z then 1 else 0) + rank hn p r)%nat
  end.

Definition countp (p : Z) (l : queue) : nat := length (filter (fun x => prio x =? p) l).

Lemma rank_app : forall l1 l2 hn p, ~ In hn (map gname l1) ->
  rank hn p (l1 ++ l2) = (countp p l1 + rank hn p l2)%nat.
Proof.
  induction l1 as [|x l IH]; intros l2 hn p Hn; [reflexivity|].
  simpl in Hn. simpl. destruct (name_eqb (gname x) hn) eqn:E.
  - apply name_eqb_eq in E. tauto.
  - rewrite IH by tauto. unfold countp. simpl. destruct (prio x =? p); reflexivity.
Qed.

Lemma countp_skip p l : countp p (map skip l) = countp p l.
Proof.
  unfold countp. induction l as [|x l IH]; [reflexivity|]. simpl.
  rewrite skip_prio. destruct (prio x =? p); simpl; rewrite IH; reflexivity.
Qed.

(* the served group g goes behind a group h wherever h is behind it: if g has
   h's priority it stops only at a group of lower priority, and by sortedness
   h cannot come after that *)
Lemma rank_delay : forall post g h,
  gname g <> gname h -> In h post -> psorted (prio g :: map prio post) ->
  rank (gname h) (prio h) (delay_insert g post) = rank (gname h) (prio h) post.
Proof.
  induction post as [|x r IH]; intros g h Hn Hin Hs; [destruct Hin|].
  destruct Hs as [H1 [H2 H3]]. apply Forall_inv in H1 as Hx. simpl.
  destruct (Z.eqb_spec (tprio (gtag x)) (tprio (gtag g))) as [E|E]; simpl.
  - destruct (name_eqb (gname x) (gname h)) eqn:Ex; [reflexivity|]. f_equal.
    destruct Hin as [->|Hin]; [rewrite name_eqb_refl in Ex; discriminate|].
    apply IH; auto. split; [inversion H1|]; auto.
  - apply name_eqb_false_neq in Hn. rewrite Hn.
    destruct (Z.eqb_spec (prio g) (prio h)) as [Ep|]; [exfalso|reflexivity].
    assert (prio h <= prio x); [|unfold prio in *; lia].
    destruct Hin as [->|Hin]; [lia|]. rewrite Forall_forall in H2. apply H2, in_map, Hin.
Qed.

Fixpoint first_ready (q : queue) (now : Z) : option group :=
  match q with
  | [] => None
  | g :: r => if group_ready g now then Some g else first_ready r now
  end.

Lemma first_ready_struct : forall pre g post now,
  Forall (fun h => group_ready h now = false) pre -> group_ready g now = true ->
  first_ready (pre ++ g :: post) now = Some g.
Proof.
  induction pre as [|x l IH]; intros g post now F R; simpl.
  - rewrite R. reflexivity.
  - apply Forall_cons_iff in F as [Rx F]. rewrite Rx. apply IH; auto.
Qed.

Lemma first_ready_none : forall q now, first_ready q now = None -> snd (pop_aux q now) = None.
Proof.
  intros q now H. destruct (pop_aux q now) as [q' [out|]] eqn:P; [|reflexivity].
  apply pop_aux_inv in P as (pre & g & post & g' & -> & F & G & _).
  rewrite (first_ready_struct _ _ _ _ F (group_ready_pop _ _ _ _ G)) in H. discriminate.
Qed.

Lemma NoDup_app_disjoint {A} (l1 l2 : list A) x : NoDup (l1 ++ l2) -> In x l1 -> ~ In x l2.
Proof.
  induction l1 as [|a l1 IH]; simpl; [tauto|]. intros D [->|H] Hx; inversion D as [|? ? Hn Hd].
  - apply Hn, in_or_app. auto.
  - exact (IH Hd H Hx).
Qed.

Lemma pop_aux_names q now q' o :
  pop_aux q now = (q', o) -> Permutation (map gname q') (map gname q).
Proof.
  intros H. apply pop_aux_inv in H. destruct o as [out|].
  - destruct H as (pre & g & post & g' & -> & _ & G & ->). apply group_pop_same in G as [_ En].
    rewrite !map_app, map_map, delay_insert_perm, (map_ext _ _ skip_name). simpl. rewrite En. reflexivity.
  - destruct H as [_ ->]. rewrite map_map, (map_ext _ _ skip_name). reflexivity.
Qed.

(* how often is the group named hn passed over by a group of its own priority p
   before it is served, in a run of Pops at the given times *)
Fixpoint bypassed (hn : name) (p : Z) (q : queue) (nows : list Z) : nat :=
  match nows with
  | [] => 0
  | now :: r =>
      match first_ready q now with
      | None => bypassed hn p (fst (pop_aux q now)) r
      | Some g =>
          if name_eqb (gname g) hn then 0
          else ((if (prio g =? p)%Z then 1 else 0) + bypassed hn p (fst (pop_aux q now)) r)%nat
      end
  end.

(* the group named hn (priority p) has a chunk ready at every Pop of the run *)
Fixpoint stays_ready (hn : name) (p : Z) (q : queue) (nows : list Z) : Prop :=
  match nows with
  | [] => True
  | now :: r =>
      (exists h, In h q /\ gname h = hn /\ prio h = p /\ group_ready h now = true) /\
      stays_ready hn p (fst (pop_aux q now)) r
  end.
