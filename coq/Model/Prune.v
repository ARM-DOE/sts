(* Model of Stage.Prune / pruneTree (C20, second clause): empty directories that are
   old enough are removed, deepest first; a directory that becomes empty because its
   (old, empty) subdirectories were just removed goes too, if it is old itself.
   Code anchor: stage/local.go pruneTree.  Definitions only. *)
From Coq Require Import List ZArith Bool.
From STS Require Import Model.Queue.
Import ListNotations.
Open Scope Z_scope.

Definition ppath := list name.       (* segments below the pruned root; [] = the root itself *)

Record pnode := mkpnode { pn_path : ppath; pn_dir : bool; pn_old : bool }.

Fixpoint ppath_eqb (a b : ppath) : bool :=
  match a, b with
  | [], [] => true
  | x :: a', y :: b' => name_eqb x y && ppath_eqb a' b'
  | _, _ => false
  end.

(* c is an entry of directory d: path(c) = path(d) ++ [one segment] *)
Fixpoint child_path (d c : ppath) : bool :=
  match d, c with
  | [], [_] => true
  | x :: d', y :: c' => name_eqb x y && child_path d' c'
  | _, _ => false
  end.

(* the walk lists the directories older than minAge; going through that list
   backwards (children before parents) a directory is removed iff it is empty
   then - i.e. iff every entry it had is a directory that was removed before it *)
Fixpoint removable (fuel : nat) (t : list pnode) (d : pnode) : bool :=
  match fuel with
  | O => false
  | S f =>
      pn_dir d && pn_old d &&
      forallb (fun c => if child_path (pn_path d) (pn_path c) then pn_dir c && removable f t c else true) t
  end.

(* deepest listed entry: the recursion above follows entries of entries, each one
   segment longer, so this many rounds are always enough (Properties/C20.v, C20_prune_fuel_sufficient) *)
Definition maxdepth (t : list pnode) : nat :=
  fold_right (fun n m => Nat.max (length (pn_path n)) m) O t.

Definition prune_fuel (t : list pnode) : nat := S (maxdepth t).

Definition prune (t : list pnode) : list pnode :=
  filter (fun n => negb (removable (prune_fuel t) t n)) t.
